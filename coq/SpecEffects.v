(* SpecEffects.v -- the boolean statements of "effects and frames" (C02, Sweeps.v) follow from the
   theorems about deleteSimplex, restrictBasisTo and addSimplexWithBasis on complexes with the
   vertex-set reading.  Left to evaluation over the built complexes: that none uses the names "new"
   and "top" of chk_addb, and which family each has.  Plain Coq. *)
From Coq Require Import String Bool Arith List.
From SV Require Import Names NamesFacts Rep Complex Atomic RepInv Shapes Closed ReachGen ClosedReach CopyFaithful BasisInv
                       DeleteEffect VInv AwbSpec VSets Restrict ClosureCount FlagExt FlagComplete CopyOk AwbTotal TopOrder Small Sweeps
                       SpecSets SpecWf SpecViews SpecBuild.
Import ListNotations.
Open Scope nat_scope.

Definition unchanged (r r' : rep) (t : name) : Prop :=
  containsSimplex r' t = true /\ orderOf r' t = orderOf r t /\
  sameset (faces r' t) (faces r t) /\ sameset (basisOf r' t) (basisOf r t).

Lemma same_simplex_unchanged r r' t : unchanged r r' t -> same_simplex r r' t = true.
Proof.
  intros (C & Ho & F & B). unfold same_simplex, ord. rewrite C, Ho, Nat.eqb_refl.
  now rewrite (proj2 (seteq_sameset _ _) F), (proj2 (seteq_sameset _ _) B).
Qed.

Lemma frame_spec r r' (kept : name -> bool) : pinv r ->
  (forall t, containsSimplex r t = true ->
     if kept t then unchanged r r' t else containsSimplex r' t = false) -> frame r r' kept = true.
Proof.
  intros P H. apply forallb_forall. intros t Ht. apply (In_simplices_iff r t P) in Ht.
  specialize (H t Ht). destruct (kept t); [now apply same_simplex_unchanged | now rewrite H].
Qed.

Definition survive (p : vset -> bool) (r r' : rep) : Prop :=
  (forall t, containsSimplex r' t = true <-> containsSimplex r t = true /\ p (basisOf r t) = true) /\
  (forall t, containsSimplex r' t = true -> unchanged r r' t).

Section Survivors.
  Variables (p : vset -> bool) (r r' : rep).
  Hypothesis Hv : vinv r.
  Hypothesis Hv' : vinv r'.
  Hypothesis S : survive p r r'.
  Let P : pinv r := vinv_pinv r Hv.
  Let P' : pinv r' := vinv_pinv r' Hv'.

  Lemma survive_fam : fam_eq (fam r') (filter p (fam r)) = true.
  Proof.
    destruct S as [Hm Hs]. apply fam_eq_distinct; [now apply distinct_fam | now apply distinct_filter, distinct_fam | |].
    - intros V HV. apply (In_fam r' V P') in HV. destruct HV as (t & Ht & <-).
      destruct (Hs t Ht) as (_ & _ & _ & B). apply Hm in Ht.
      exists (basisOf r t). split; [|exact B]. apply filter_In. split; [|tauto]. apply (In_fam r _ P). exists t. tauto.
    - intros W HW. apply filter_In in HW. destruct HW as [HW Hp]. apply (In_fam r W P) in HW. destruct HW as (t & Ht & <-).
      assert (Ht' : containsSimplex r' t = true) by now apply Hm.
      destruct (Hs t Ht') as (_ & _ & _ & B).
      exists (basisOf r' t). split; [apply (In_fam r' _ P'); eauto | now apply sameset_sym].
  Qed.

  Lemma survive_frame : frame r r' (fun t => p (basisOf r t)) = true.
  Proof.
    destruct S as [Hm Hs]. apply (frame_spec r r' _ P). intros t Ht. destruct (p (basisOf r t)) eqn:E.
    - apply Hs, Hm. now split.
    - destruct (containsSimplex r' t) eqn:C; [|reflexivity]. apply Hm in C. destruct C as [_ C]. congruence.
  Qed.
End Survivors.

Lemma deleteSimplex_survive r s r' x : vinv r -> containsSimplex r s = true -> deleteSimplex r s = (r', x) ->
  survive (fun V => negb (subsetn (basisOf r s) V)) r r'.
Proof.
  intros Hv Hs H.
  destruct (deleteSimplex_vertex_sets r s r' x Hv Hs H) as (_ & _ & Hm & Hb).
  destruct (deleteSimplex_effect r s r' x (vinv_sinv r Hv) Hs H) as (_ & _ & _ & Hf).
  split.
  - intros t. rewrite (Hm t), negb_true_iff, <- not_true_iff_false, subsetn_incl. reflexivity.
  - intros t Ht. destruct (Hf t Ht) as [Ho F]. split; [exact Ht|]. split; [exact Ho|]. split; [exact F | exact (Hb t Ht)].
Qed.

Theorem chk_delete_holds r : vinv r -> topinv r -> chk_delete r = true.
Proof.
  intros Hv T. pose proof (vinv_pinv r Hv) as P.
  apply forallb_forall. intros s Hs. apply (In_simplices_iff r s P) in Hs.
  pose proof (pstep_topinv r (PDelete s) Hv T) as T'. cbn [pstep] in T'.
  destruct (deleteSimplex r s) as [r' x] eqn:E.
  destruct (deleteSimplex_vertex_sets r s r' x Hv Hs E) as (-> & Hv' & _).
  pose proof (deleteSimplex_survive r s r' _ Hv Hs E) as S.
  rewrite !andb_true_iff. repeat split.
  - exact (survive_fam _ r r' Hv Hv' S).
  - exact (survive_frame _ r r' Hv S).
  - exact (wfb_of_invariants r' Hv' T').
  - exact (viewsb_of_invariants r' Hv').
Qed.

Definition part_of (r r' : rep) : Prop :=
  sinv r' /\ forall t, containsSimplex r' t = true ->
             containsSimplex r t = true /\ orderOf r' t = orderOf r t /\ sameset (faces r' t) (faces r t).

Lemma deleteSimplex_part_of r0 r s r' x : part_of r0 r -> deleteSimplex r s = (r', x) -> part_of r0 r'.
Proof.
  intros [HS K] H. destruct (containsSimplex r s) eqn:C.
  - destruct (deleteSimplex_effect r s r' x HS C H) as (_ & HS' & Hm & Hf). split; [exact HS'|].
    intros t Ht. destruct (Hf t Ht) as [Ho F]. apply Hm in Ht. destruct (K t (proj1 Ht)) as (C0 & Ho0 & F0).
    split; [exact C0|]. split; [congruence | exact (sameset_trans _ _ _ F F0)].
  - rewrite (deleteSimplex_unknown r s C) in H. injection H as <- _. now split.
Qed.

Lemma restrict_survive r B r' : vinv r -> restrictBasisTo r B = (r', Ok tt) -> survive (fun V => subsetn V B) r r'.
Proof.
  intros Hv H. destruct (restrict_vertex_sets r B r' _ Hv H) as [_ K]. destruct (K eq_refl) as (_ & Hm & Hb).
  assert (K0 : part_of r r).
  { split; [exact (vinv_sinv r Hv)|]. intros t Ht. split; [exact Ht|]. split; [reflexivity | apply sameset_refl]. }
  destruct (restrictBasisTo_I (part_of r) (deleteSimplex_part_of r) r B r' _ K0 H) as [_ Ho].
  split.
  - intros t. rewrite (Hm t), subsetn_incl. reflexivity.
  - intros t Ht. destruct (Ho t Ht) as (_ & Hor & F). split; [exact Ht|]. split; [exact Hor|]. split; [exact F | exact (Hb t Ht)].
Qed.

Theorem chk_restrict_holds r : vinv r -> topinv r -> chk_restrict r = true.
Proof.
  intros Hv T. pose proof (vinv_pinv r Hv) as P.
  apply forallb_forall. intros B HB. rewrite sublists_subseqs in HB.
  assert (Hp : pts r B) by (intros b Hb; exact (proj1 (listed_assoc r b 0 P) (subseqs_incl _ B HB b Hb))).
  pose proof (pstep_topinv r (PRestrict B) Hv T) as T'. cbn [pstep] in T'.
  destruct (restrictBasisTo r B) as [r' x] eqn:E.
  destruct (restrict_vertex_sets r B r' x Hv E) as [Hx K]. rewrite (Hx Hp) in *. destruct (K eq_refl) as (Hv' & _).
  pose proof (restrict_survive r B r' Hv E) as S.
  rewrite !andb_true_iff. repeat split.
  - exact (survive_fam _ r r' Hv Hv' S).
  - exact (survive_frame _ r r' Hv S).
  - exact (wfb_of_invariants r' Hv' T').
Qed.

Section AddByBasis.
  Variables (r r' : rep) (bs : list name) (n : name).
  Hypothesis Hv : vinv r.
  Hypothesis Hv' : vinv r'.
  Hypothesis Nd : NoDup bs.
  Hypothesis Hn : containsSimplex r' n = true.
  Hypothesis Hb : sameset (basisOf r' n) bs.
  Hypothesis G : grows bs r r'.
  Let P : pinv r := vinv_pinv r Hv.
  Let P' : pinv r' := vinv_pinv r' Hv'.

  (* what is new spans a subset of bs; each non-empty subset of bs is spanned, r' being closed under subsets *)
  Lemma addb_fam : fam_eq (fam r') (dedup_sets (fam r ++ nonempty_sublists bs)) = true.
  Proof.
    apply fam_eq_distinct; [now apply distinct_fam | apply distinct_dedup | |].
    - intros V HV. apply (In_fam r' V P') in HV. destruct HV as (t & Ht & <-).
      assert (H : exists W, In W (fam r ++ nonempty_sublists bs) /\ sameset (basisOf r' t) W).
      { destruct (g_new bs r r' G t Ht) as [Hold|Hi].
        - destruct (g_old bs r r' G t Hold) as (_ & _ & _ & B). exists (basisOf r t).
          split; [apply in_or_app; left; apply (In_fam r _ P); eauto | rewrite B; apply sameset_refl].
        - pose proof Ht as At. apply (containsSimplex_assoc r' _) in At. destruct At as (k & j & At).
          destruct (subset_as_sublist _ bs Hi) as (W & HW & E).
          + intros E. pose proof (v_card r' Hv' t k j At) as L. now rewrite E in L.
          + exists W. split; [apply in_or_app; now right | exact E]. }
      destruct H as (W & HW & E). destruct (dedup_sets_covers _ W HW) as (W' & HW' & E').
      exists W'. split; [exact HW' | exact (sameset_trans _ _ _ E E')].
    - intros W HW. apply dedup_sets_incl, in_app_or in HW. destruct HW as [HW|HW].
      + apply (In_fam r W P) in HW. destruct HW as (t & Ht & <-).
        destruct (g_old bs r r' G t Ht) as (Ht' & _ & _ & B).
        exists (basisOf r' t). split; [apply (In_fam r' _ P'); eauto | rewrite B; apply sameset_refl].
      + apply In_nonempty_sublists in HW. destruct HW as [HW Hne].
        destruct (closed_under_subsets r' Hv' n W Hn (subseqs_nodup bs W Nd HW) Hne) as (u & Hu & E).
        * intros q Hq. apply Hb. exact (subseqs_incl bs W HW q Hq).
        * exists (basisOf r' u). split; [apply (In_fam r' _ P'); eauto | now apply sameset_sym].
  Qed.

  Lemma addb_frame : frame r r' (fun _ => true) = true.
  Proof.
    apply (frame_spec r r' _ P). intros t Ht. destruct (g_old bs r r' G t Ht) as (C & Ho & F & B).
    split; [exact C|]. split; [exact Ho|]. rewrite F, B. split; apply sameset_refl.
  Qed.
End AddByBasis.

(* each request of chk_addb is within the contract of add by basis: a sublist of the points and the
   free name "new", of at least two names, that no simplex spans, under the free name "top" *)
Theorem chk_addb_holds r : vinv r -> topinv r ->
  containsSimplex r (NStr "new") = false -> containsSimplex r (NStr "top") = false -> chk_addb r = true.
Proof.
  intros Hv T Hnew Htop. pose proof (vinv_pinv r Hv) as P.
  apply forallb_forall. intros V HV. apply filter_In in HV. destruct HV as [HV C]. rewrite sublists_subseqs in HV.
  apply andb_prop in C. destruct C as [Hl Hm]. apply Nat.leb_le in Hl. apply negb_true_iff in Hm.
  assert (Hpt : forall b, In b (simplicesOfOrder r 0) -> containsSimplex r b = true /\ orderOf r b = Ok 0).
  { intros b Hb. destruct (proj1 (listed_assoc r b 0 P) Hb) as (j & A). unfold containsSimplex, orderOf. now rewrite A. }
  assert (Hin : forall b, In b V -> In b (simplicesOfOrder r 0) \/ b = NStr "new").
  { intros b Hb. apply (subseqs_incl _ V HV), in_app_or in Hb. destruct Hb as [Hb|[<-|[]]]; auto. }
  assert (Nd : NoDup V).
  { apply (subseqs_nodup _ V) in HV; [exact HV|]. apply NoDup_app_snoc; [now apply simplicesOfOrder_nodup|].
    intros H. apply Hpt in H. destruct H as [H _]. congruence. }
  destruct (addSimplexWithBasis_total r V (NStr "top") None Hv Nd Hl Htop) as (r' & E).
  - intros H. destruct (Hin _ H) as [Hb|D]; [|discriminate]. apply Hpt in Hb. destruct Hb as [Hb _]. congruence.
  - intros b Hb Cb. destruct (Hin b Hb) as [Hp| ->]; [now apply Hpt | congruence].
  - intros t Ht Hs. assert (set_mem V (fam r) = true); [|congruence].
    apply set_mem_spec. exists (basisOf r t). split; [apply (In_fam r _ P); eauto | now apply sameset_sym].
  - pose proof (pstep_topinv r (PAddB V (Some (NStr "top")) None) Hv T) as T'. cbn [pstep] in T'. rewrite E in *.
    destruct (addSimplexWithBasis_spec r V _ _ r' _ Hv Nd Hl E) as (Hv' & Hn & Hb & G).
    rewrite name_eqb_refl, !andb_true_iff. repeat split.
    + now apply seteq_sameset.
    + exact (addb_fam r r' V _ Hv Hv' Nd Hn Hb G).
    + exact (addb_frame r r' V Hv G).
    + exact (wfb_of_invariants r' Hv' T').
    + exact (viewsb_of_invariants r' Hv').
Qed.

Lemma sweep_build_names :
  forallb (fun c => negb (containsSimplex (build c) (NStr "new")) && negb (containsSimplex (build c) (NStr "top"))) complexes4 = true.
Proof. vm_compute. reflexivity. Qed.

Lemma sweep_build_fam : forallb (fun c => fam_eq (fam (build c)) (closure_of c)) complexes4 = true.
Proof. vm_compute. reflexivity. Qed.

Theorem built_complexes_upto4 : forall c, In c complexes4 ->
  fam_eq (fam (build c)) (closure_of c) && wfb (build c) && viewsb (build c) = true.
Proof.
  intros c H. destruct (build_invariants4 c H) as [Hv T].
  now rewrite (lift _ _ sweep_build_fam c H), (wfb_of_invariants _ Hv T), (viewsb_of_invariants _ Hv).
Qed.
Theorem delete_upto4 : forall c, In c complexes4 -> chk_delete (build c) = true.
Proof. intros c H. destruct (build_invariants4 c H) as [Hv T]. exact (chk_delete_holds _ Hv T). Qed.
Theorem addb_upto4 : forall c, In c complexes4 -> chk_addb (build c) = true.
Proof.
  intros c H. destruct (build_invariants4 c H) as [Hv T].
  pose proof (lift _ _ sweep_build_names c H) as E. apply andb_prop in E. destruct E as [Hnew Htop].
  apply chk_addb_holds; auto; now apply negb_true_iff.
Qed.
Theorem restrict_upto4 : forall c, In c complexes4 -> chk_restrict (build c) = true.
Proof. intros c H. destruct (build_invariants4 c H) as [Hv T]. exact (chk_restrict_holds _ Hv T). Qed.
