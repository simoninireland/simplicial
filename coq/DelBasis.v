(* DelBasis.v -- what forceDeleteSimplex does to the bases of the other simplices: nothing when a
   simplex of order >= 1 goes; the deleted point disappears from them when a point goes.  Plain Coq. *)
From Coq Require Import String ZArith Bool Arith List Lia.
From SV Require Import Names NamesFacts ListFacts Rep Fresh Complex Atomic RepInv Shapes Incidence AddEffect DelEffect.
Import ListNotations.
Open Scope nat_scope.

Section DelB.
  Variables (r : rep) (s : name) (k i : nat).
  Hypothesis Hinv : sinv r.
  Hypothesis As : assoc s (r_simp r) = Some (k, i).

  Let r' := fst (forceDeleteSimplex r s).

  Theorem d_basis t kt it : t <> s -> assoc t (r_simp r) = Some (kt, it) ->
    forall p, In p (basisOf r' t) <-> In p (basisOf r t) /\ p <> s.
  Proof.
    intros Hne At p. pose proof Hinv as [P Lb Ls Sh]. pose proof P as [K Pm St L].
    destruct (d_pos r s k i Hinv As t kt it Hne At) as (Hkt' & At' & Hnei). fold r' in Hkt', At'.
    destruct (proj1 (Pm t kt it) At) as [Hkt Hit].
    destruct (d_k r s k i Hinv As) as (Hk & Hsi & Hil & Hl).
    assert (Hitl : it < length (idxk r kt)) by (apply nth_error_Some; congruence).
    destruct (Sh kt Hkt) as [Hdb _].
    assert (Hraw : basisOf r' t = names_of_col (idxk r' 0) (getcol (newpos k i kt it) (bask r' kt))).
    { unfold basisOf. now rewrite At'. }
    assert (Hold : basisOf r t = names_of_col (idxk r 0) (getcol it (bask r kt))).
    { unfold basisOf. now rewrite At. }
    unfold r' in Hraw at 2. rewrite (d_idx r s k i Hinv As 0) in Hraw.
    destruct (forceDelete_mats r s k i Hinv As) as (_ & _ & _ & Hbas). fold r' in Hbas. rewrite (Hbas kt Hkt') in Hraw.
    (* the column of t in the (column-deleted) matrix of its order is its old column *)
    assert (Hcn : getcol (newpos k i kt it) (if kt =? k then del_col i (bask r k) else bask r kt) = getcol it (bask r kt) /\
                  newpos k i kt it < ncols (if kt =? k then del_col i (bask r k) else bask r kt)).
    { destruct Hdb as (_ & _ & Hc). unfold newpos. destruct (kt =? k) eqn:E; [|cbn [andb]; split; [reflexivity | lia]].
      apply Nat.eqb_eq in E. subst kt. specialize (Hnei eq_refl). cbn [andb]. rewrite getcol_del_col.
      unfold ncols, del_col in *. simpl. rewrite length_remove_nth by lia.
      destruct (i <? it) eqn:E2.
      - apply Nat.ltb_lt in E2. split; [f_equal | lia].
        replace (it - 1 <? i) with false by (symmetry; apply Nat.ltb_ge; lia). lia.
      - apply Nat.ltb_ge in E2. split; [f_equal | lia].
        now replace (it <? i) with true by (symmetry; apply Nat.ltb_lt; lia). }
    destruct Hcn as [Hcol Hnc].
    destruct (k =? 0) eqn:E0.
    - (* a point goes: its row goes from every basis matrix, its name from the point listing *)
      apply Nat.eqb_eq in E0. subst k. rewrite Nat.eqb_refl in Hraw.
      rewrite (getcol_del_row _ _ _ Hnc), Hcol in Hraw.
      assert (Hnd : NoDup (idxk r 0)) by (apply pinv_nodup_order; auto).
      assert (Hlen : length (getcol it (bask r kt)) = length (idxk r 0)) by (apply (length_getcol _ _ _ _ Hdb); exact Hitl).
      rewrite Hraw, Hold, (In_noc_remove _ _ _ _ Hnd Hlen), Hsi. split; intros [H1 H2]; split; auto; congruence.
    - (* a higher simplex goes: no basis changes *)
      replace (0 =? k) with false in Hraw by (symmetry; apply Nat.eqb_neq; apply Nat.eqb_neq in E0; lia).
      rewrite Hcol in Hraw. rewrite Hraw, Hold. split; [|tauto]. intros Hp. split; [exact Hp|].
      intros ->. apply In_names_of_col in Hp. destruct Hp as (j & Hj & _).
      assert (A0 : assoc s (r_simp r) = Some (0, j)) by (apply Pm; split; [lia | exact Hj]).
      rewrite As in A0. injection A0 as A0 _. apply Nat.eqb_neq in E0. lia.
  Qed.
End DelB.
