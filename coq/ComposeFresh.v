(* ComposeFresh.v -- compose(): the complex it returns (new, or the caller's target when that target owns its
   dictionaries) owns every one of its dictionaries -- merged ones and handed-over ones alike are new cells of
   that owner -- and no cell of another owner is written, whatever the outcome (C09).  Plain Coq. *)
From Coq Require Import Arith List.
From SV Require Import Names NamesFacts ListFacts Rep Complex Homology WorldProofs ComposeProofs.
Import ListNotations.
Open Scope nat_scope.

Definition fresh_state (uid : nat) (hp0 : heap) (acc : heap * rep * res unit) : Prop :=
  let '(hp, d, _) := acc in owned d /\ r_uid d = uid /\ agree_off uid hp0 hp.

Lemma compose_step_fresh a c uid hp0 acc s : fresh_state uid hp0 acc -> fresh_state uid hp0 (compose_step a c acc s).
Proof.
  destruct acc as [[hp d] [u|e]]; [|auto]. intros (O & U & Hh). unfold compose_step.
  destruct (c_simplexWithBasis a (basisOf c s) false) as [q|e]; [|simpl; auto].
  destruct (alloc d) as [d1 h'] eqn:Ea.
  destruct (containsSimplex a s).
  - destruct q as [q'|]; [|simpl; auto]. destruct (name_eqb s q'); [|simpl; auto].
    (* the merged dictionary goes into a new cell of the owner uid *)
    injection Ea as <- <-. simpl. split; [|split; [exact U|]].
    + intros s0 h0 Hin. apply in_assoc_set in Hin. destruct Hin as [Hin|[= _ ->]]; [exact (O s0 h0 Hin) | reflexivity].
    + eapply agree_off_trans; [exact Hh | apply agree_off_set; exact U].
  - destruct q as [q'|]; [simpl; auto|].
    destruct (addSimplex d1 (faces c s) (Some s) (Some h')) as [d2 x] eqn:EA.
    destruct (alloc_add_owned uid d d1 h' _ _ d2 x (conj O U) Ea EA) as ([O2 U2] & Hh').
    pose proof (agree_off_trans _ _ _ _ Hh (agree_off_set uid hp h' (heap_get hp (snd (snd (vw c s)))) Hh')) as F.
    destruct x; exact (conj O2 (conj U2 F)).
Qed.

Lemma compose_loop_fresh a c uid hp0 hp d : fresh_state uid hp0 (hp, d, Ok tt) -> fresh_state uid hp0 (compose_loop hp a c d).
Proof.
  intros H. rewrite compose_loop_fold.
  apply (prefix_ind (fun dn => fresh_state uid hp0 (fold_left (compose_step a c) dn (hp, d, Ok tt)))); [exact H|].
  intros dn s _ _ IH. rewrite fold_left_app. now apply compose_step_fresh.
Qed.

Theorem compose_fresh hp a c uid hp' d x : compose hp a c None uid = (hp', d, x) ->
  owned d /\ r_uid d = uid /\ forall h, fst h <> uid -> heap_get hp' h = heap_get hp h.
Proof.
  unfold compose. destruct (copy_new hp (view_of a) uid) as [[hp1 d0] y] eqn:E0.
  pose proof (copy_new_fresh hp (view_of a) uid hp1 d0 y E0) as F0.
  destruct y as [[]|e]; [|intros [= <- <- _]; exact F0].
  intros H. apply (compose_loop_fresh a c uid hp) in F0. now rewrite H in F0.
Qed.

Theorem compose_into_fresh hp a c t uid hp' d x : owned t -> compose hp a c (Some t) uid = (hp', d, x) ->
  owned d /\ r_uid d = r_uid t /\ forall h, fst h <> r_uid t -> heap_get hp' h = heap_get hp h.
Proof.
  intros Ot. unfold compose, copy_into.
  destruct (negb (length (intern (map fst (view_of a)) (simplices t false)) =? 0)); [intros [= <- <- _]; auto|].
  destruct (addSimplicesFrom hp t (view_of a) RNone) as [[[hp1 d0] st] y] eqn:E0. unfold addSimplicesFrom in E0.
  pose proof (addFrom_loop_owned RNone _ _ _ _ _ _ _ _ _ Ot E0) as F0.
  destruct y as [l|e]; simpl; [|intros [= <- <- _]; exact F0].
  intros H. apply (compose_loop_fresh a c (r_uid t) hp) in F0. now rewrite H in F0.
Qed.
