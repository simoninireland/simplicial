(* Listing.v -- where addSimplex and bulk adds put new simplices in the listings; the snapshot of a
   filtration lists what the filtration lists (C14, C09).  Plain Coq. *)
From Coq Require Import String ZArith Bool Arith List Lia.
From SV Require Import Names ListFacts Rep Complex Atomic RepInv Shapes AddEffect Closed CopyFaithful Smaller Filtration SnapProofs.
Import ListNotations.
Open Scope nat_scope.

Theorem addSimplex_listing r fs id attr r' n : sinv r -> addSimplex r fs id attr = (r', Ok n) ->
  forall j, simplicesOfOrder r' j = if j =? length fs - 1 then simplicesOfOrder r j ++ [n] else simplicesOfOrder r j.
Proof.
  intros Hinv H j. assert (Hinv' : sinv r') by (eapply addSimplex_sinv; eauto).
  rewrite (simplicesOfOrder_idxk r' j (s_p r' Hinv')), (simplicesOfOrder_idxk r j (s_p r Hinv)).
  apply addSimplex_eq2 in H. destruct H as (r2 & h & Hs & Hc2 & Hnd & Hchk & Hk0 & Hk & ->).
  assert (Hinv2 : sinv r2) by (eapply sinv_same_obs; eauto).
  assert (Ei : forall j0, idxk r j0 = idxk r2 j0).
  { intros j0. destruct Hs as (_ & _ & _ & Hi & _). unfold idxk. now rewrite Hi. }
  rewrite !Ei, (add_idxk r2 fs n h _ (pi_len r2 (s_p r2 Hinv2)) Hk j).
  destruct (Nat.eqb_spec j (length fs - 1)) as [->|]; reflexivity.
Qed.

Lemma addSimplex_index r fs id attr r' s : sinv r -> addSimplex r fs id attr = (r', Ok s) ->
  assoc s (r_simp r') = Some (length fs - 1, length (simplicesOfOrder r (length fs - 1))).
Proof.
  intros HS H. apply (nth_simplicesOfOrder r' s _ _ (s_p r' (addSimplex_sinv _ _ _ _ _ _ HS H))).
  rewrite (addSimplex_listing r fs id attr r' s HS H), Nat.eqb_refl.
  now rewrite nth_error_app2, Nat.sub_diag by apply le_n.
Qed.

Definition of_order (j : nat) (src : srcview) : list name :=
  map fst (filter (fun e => length (fst (snd e)) - 1 =? j) src).
Theorem bulk_add_listing : forall (src : srcview) hp r st ns hp' r' st' ns',
  sinv r -> addFrom_loop hp r RNone st src ns = (hp', r', st', Ok ns') ->
  forall j, simplicesOfOrder r' j = simplicesOfOrder r j ++ of_order j src.
Proof.
  induction src as [|[s [fs h]] rest IH]; intros hp r st ns hp' r' st' ns' Hinv H j.
  - injection H as _ <- _ _. unfold of_order. simpl. now rewrite app_nil_r.
  - rewrite addFrom_loop_RNone_cons in H. destruct (alloc r) as [r1 h'] eqn:Ea.
    assert (Hs1 : same_obs r r1) by (pose proof (same_obs_alloc r) as X; now rewrite Ea in X).
    assert (Hinv1 : sinv r1) by (eapply sinv_same_obs; eauto).
    destruct (addSimplex r1 fs (Some s) (Some h')) as [r2 [id|e]] eqn:E; [|discriminate].
    assert (Hinv2 : sinv r2) by (eapply addSimplex_sinv; eauto).
    rewrite (IH _ _ _ _ _ _ _ _ Hinv2 H j), (addSimplex_listing r1 fs (Some s) (Some h') r2 id Hinv1 E j).
    destruct (addSimplex_given r1 fs s h' r2 id E) as [-> _].
    destruct (same_obs_queries _ _ Hs1) as (_ & _ & _ & _ & _ & _ & Eo & _).
    rewrite Eo, (Nat.eqb_sym j). unfold of_order. cbn [filter fst snd].
    destruct (length fs - 1 =? j); [cbn [map fst]; now rewrite <- app_assoc|reflexivity].
Qed.

Lemma filter_comm {A} (f g : A -> bool) l : filter f (filter g l) = filter g (filter f l).
Proof. induction l as [|a l IH]; simpl; [reflexivity|]. destruct (f a) eqn:Ef, (g a) eqn:Eg; simpl; rewrite ?Ef, ?Eg, IH; reflexivity. Qed.
Lemma filter_map_fst {A B} (f : A -> B) (p : B -> bool) l : filter p (map f l) = map f (filter (fun x => p (f x)) l).
Proof. induction l as [|a l IH]; simpl; [reflexivity|]. destruct (p (f a)); simpl; now rewrite IH. Qed.

Lemma filter_by_order r (q : name -> bool) j : (forall k s, In s (simplicesOfOrder r k) -> q s = (k =? j)) ->
  forall n, filter q (concat (map (simplicesOfOrder r) (seq 0 n))) = if j <? n then simplicesOfOrder r j else [].
Proof.
  intros Hq. induction n as [|n IH]; [reflexivity|].
  rewrite seq_S, map_app, concat_app, filter_app, IH. cbn [map concat plus]. rewrite app_nil_r.
  destruct (Nat.eq_dec n j) as [->|Hne].
  - rewrite filter_all by (intros s Hs; rewrite (Hq j s Hs); apply Nat.eqb_refl).
    now rewrite Nat.ltb_irrefl, (proj2 (Nat.ltb_lt j (S j)) (Nat.lt_succ_diag_r j)).
  - rewrite filter_none, app_nil_r by (intros s Hs; rewrite (Hq n s Hs); now apply Nat.eqb_neq).
    destruct (Nat.ltb_spec j n), (Nat.ltb_spec j (S n)); try reflexivity; lia.
Qed.

Lemma filter_order_concat r : pinv r -> forall n j,
  filter (fun s => match assoc s (r_simp r) with Some (k, _) => k =? j | None => false end)
         (concat (map (simplicesOfOrder r) (seq 0 n))) = if j <? n then simplicesOfOrder r j else [].
Proof.
  intros P n j. apply filter_by_order. intros k s Hs. unfold simplicesOfOrder in Hs.
  destruct (k <? r_nord r) eqn:Lt; [|destruct Hs]. apply Nat.ltb_lt in Lt. apply In_nth_error in Hs. destruct Hs as (i & Hi).
  now rewrite (proj2 (pi_pos r P s k i) (conj Lt Hi)).
Qed.

Lemma alt_sum_strip : forall l s, alt_sum s (strip_zeros l) = alt_sum s l.
Proof.
  induction l as [|n l IH]; intros s; [reflexivity|]. cbn [strip_zeros alt_sum].
  specialize (IH (- s)%Z). destruct (strip_zeros l) as [|a t] eqn:E.
  - destruct (n =? 0) eqn:En; cbn [alt_sum] in *.
    + apply Nat.eqb_eq in En. subst n. lia.
    + lia.
  - cbn [alt_sum] in *. lia.
Qed.
Lemma alt_sum_zeros (g : nat -> nat) : forall m a s, (forall j, a <= j -> g j = 0) -> alt_sum s (map g (seq a m)) = 0%Z.
Proof.
  induction m as [|m IH]; intros a s H; [reflexivity|]. cbn [seq map alt_sum]. rewrite (H a (le_n a)), IH; [lia|].
  intros j Hj. apply H. lia.
Qed.
Lemma alt_sum_pad (g : nat -> nat) : forall d a m s, (forall j, a + d <= j -> g j = 0) ->
  alt_sum s (map g (seq a (d + m))) = alt_sum s (map g (seq a d)).
Proof.
  induction d as [|d IH]; intros a m s H.
  - cbn [plus seq map alt_sum]. apply alt_sum_zeros. intros j Hj. apply H. lia.
  - cbn [plus seq map alt_sum]. rewrite (IH (S a) m (- s)%Z); [reflexivity|]. intros j Hj. apply H. lia.
Qed.

Theorem names_view_listing hp r p uid hp' c : cinv r ->
  copy_new hp (names_view r (filter p (simplices r false))) uid = (hp', c, Ok tt) ->
  forall j, simplicesOfOrder c j = filter p (simplicesOfOrder r j).
Proof.
  intros Hc H j. pose proof (s_p r (c_s r Hc)) as P.
  unfold copy_new, addSimplicesFrom in H.
  destruct (addFrom_loop hp (empty_rep uid) RNone rl0 _ []) as [[[hp1 r1] st1] [ns|e]] eqn:E; [|discriminate].
  injection H as _ <-.
  rewrite (bulk_add_listing _ _ _ _ _ _ _ _ _ (sinv_empty uid) E j), simplicesOfOrder_above by apply Nat.le_0_l.
  cbn [app]. unfold of_order, names_view. rewrite filter_map_fst, map_map. cbn [fst snd]. rewrite map_id.
  rewrite filter_comm, (simplices_by_order r P), (filter_by_order r _ j).
  - destruct (j <? length (r_idx r)) eqn:Lt; [reflexivity|]. apply Nat.ltb_ge in Lt.
    pose proof (pi_len r P). now rewrite simplicesOfOrder_above by lia.
  - intros k s Hs. now rewrite (cinv_face_counts r Hc k s Hs).
Qed.

Theorem copy_listing_per_order hp src uid hp' c : cinv src -> copy_new hp (view_of src) uid = (hp', c, Ok tt) ->
  forall j, simplicesOfOrder c j = simplicesOfOrder src j.
Proof.
  intros Hc H j. unfold view_of in H. rewrite <- (filter_all (fun _ => true) (simplices src false)) in H by reflexivity.
  rewrite (names_view_listing hp src _ uid hp' c Hc H j). now apply filter_all.
Qed.

Section Snap.
  Variables (hp : heap) (f : filt) (uid : nat) (hp' : heap) (c : rep).
  Hypothesis Hc : cinv (f_rep f).
  Hypothesis Hsnap : copy_new hp (f_view f) uid = (hp', c, Ok tt).

  Theorem snap_listing_per_order j : simplicesOfOrder c j = filter (f_contains f) (simplicesOfOrder (f_rep f) j).
  Proof. exact (names_view_listing hp (f_rep f) (f_contains f) uid hp' c Hc Hsnap j). Qed.

  Lemma snap_above j : r_nord (f_rep f) <= j -> simplicesOfOrder c j = [].
  Proof. intros Hj. now rewrite snap_listing_per_order, simplicesOfOrder_above. Qed.

  Theorem snap_listing : simplices c false = f_simplices f false.
  Proof.
    pose proof (s_p _ (c_s _ Hc)) as P.
    pose proof (s_p c (proj1 (snap_answers_as_filtration hp f uid hp' c P Hsnap))) as Pc.
    unfold f_simplices. rewrite (simplices_by_order c Pc), (simplices_by_order _ P), <- concat_filter_map, map_map.
    rewrite (map_ext (fun j => filter (f_contains f) (simplicesOfOrder (f_rep f) j)) (simplicesOfOrder c))
      by (intros j; symmetry; apply snap_listing_per_order).
    pose proof (pi_len _ P). pose proof (pi_len c Pc).
    rewrite <- (concat_pad (simplicesOfOrder c) (length (r_idx c)) (length (r_idx (f_rep f))))
      by (intros j Hj; apply simplicesOfOrder_above; lia).
    rewrite <- (concat_pad (simplicesOfOrder c) (length (r_idx (f_rep f))) (length (r_idx c)))
      by (intros j Hj; apply snap_above; lia).
    now rewrite Nat.add_comm.
  Qed.

  Theorem snap_euler : eulerCharacteristic c = f_eulerCharacteristic f.
  Proof.
    unfold eulerCharacteristic, f_eulerCharacteristic, numberOfSimplicesOfOrder, f_numberOfSimplicesOfOrder.
    rewrite alt_sum_strip.
    set (g := fun k => length (simplicesOfOrder c k)).
    rewrite (map_ext (fun k => length (filter (f_contains f) (simplicesOfOrder (f_rep f) k))) g)
      by (intros k; unfold g; now rewrite snap_listing_per_order).
    rewrite <- (alt_sum_pad g (r_nord c) 0 (r_nord (f_rep f)) 1%Z) by (intros j Hj; unfold g; now rewrite simplicesOfOrder_above).
    rewrite <- (alt_sum_pad g (r_nord (f_rep f)) 0 (r_nord c) 1%Z) by (intros j Hj; unfold g; now rewrite snap_above).
    now rewrite Nat.add_comm.
  Qed.
End Snap.
