(* FiltProofs.v -- the filtration model: its index-keyed tables, what the index moves, addSimplex,
   forceDeleteSimplex and copy() do to a filtration; the complex seen at an index, monotonicity, birth
   indices (C13); index-unaware queries refuted by witnesses (C14).  Plain Coq. *)
From Coq Require Import String ZArith Bool Arith List Lia Sorted Permutation.
From SV Require Import Names NamesFacts FoldRes Rep Complex Atomic RepInv Homology Filtration.
Import ListNotations.
Open Scope nat_scope.

Definition at_index (f : filt) (i : idx) : filt :=
  mkFilt (f_rep f) i (f_appears f) (f_includes f) (f_maxOrders f).

Lemma zassoc_in {B} i (l : list (idx * B)) : zassoc i l <> None <-> In i (map fst l).
Proof.
  induction l as [|[k v] t IH]; simpl; [tauto|].
  destruct (Z.eqb_spec i k) as [->|Hne].
  - split; [auto|discriminate].
  - rewrite IH. split; [auto|]. intros [E|E]; [congruence|exact E].
Qed.

Lemma zassoc_some_in {B} i (v : B) l : zassoc i l = Some v -> In (i, v) l.
Proof.
  induction l as [|[k w] t IH]; simpl; [discriminate|].
  destruct (Z.eqb_spec i k) as [->|Hne]; [intros [= ->]; now left|]. intros H. right. now apply IH.
Qed.

Lemma zassoc_of_in {B} i (v : B) l : NoDup (map fst l) -> In (i, v) l -> zassoc i l = Some v.
Proof.
  induction l as [|[k w] t IH]; simpl; intros Hnd Hin; [destruct Hin|].
  inversion Hnd as [|a b Hn Hd]; subst. destruct Hin as [[= -> ->]|Hin].
  - now rewrite Z.eqb_refl.
  - destruct (Z.eqb_spec i k) as [->|Hne]; [|now apply IH].
    exfalso. apply Hn. apply in_map_iff. exists (k, v). auto.
Qed.

Lemma zassoc_app {B} i (l1 l2 : list (idx * B)) :
  zassoc i (l1 ++ l2) = match zassoc i l1 with Some v => Some v | None => zassoc i l2 end.
Proof. induction l1 as [|[k v] t IH]; simpl; [reflexivity|]. destruct (Z.eqb i k); auto. Qed.

Lemma zassoc_set_keys {B} i (b : B) l : zassoc i l <> None -> map fst (zassoc_set i b l) = map fst l.
Proof.
  induction l as [|[k v] t IH]; simpl; [congruence|].
  destruct (Z.eqb_spec i k) as [->|Hne]; simpl; [reflexivity|]. intros H. now rewrite IH.
Qed.

Lemma zassoc_set_spec {B} i j (b : B) l : zassoc j (zassoc_set i b l) = if Z.eqb j i then Some b else zassoc j l.
Proof.
  induction l as [|[k v] t IH]; simpl; [reflexivity|].
  destruct (Z.eqb_spec i k) as [->|Hik]; simpl.
  - destruct (Z.eqb j k); reflexivity.
  - rewrite IH. destruct (Z.eqb_spec j k) as [->|]; [|reflexivity]. destruct (Z.eqb_spec k i); congruence.
Qed.

Lemma zassoc_del_keys {B C} i (l : list (idx * B)) (m : list (idx * C)) :
  map fst l = map fst m -> map fst (zassoc_del i l) = map fst (zassoc_del i m).
Proof.
  revert m. induction l as [|[k v] t IH]; intros [|[k' v'] m] E; simpl in *; try discriminate; [reflexivity|].
  injection E as -> E. destruct (Z.eqb i k'); simpl; [exact E|]. f_equal. now apply IH.
Qed.

Lemma zassoc_del_in {B} i j (l : list (idx * B)) : In j (map fst (zassoc_del i l)) -> In j (map fst l).
Proof.
  induction l as [|[k v] t IH]; simpl; [tauto|].
  destruct (Z.eqb i k); simpl; [auto|]. intros [E|E]; auto.
Qed.

Lemma zassoc_del_nodup {B} i (l : list (idx * B)) : NoDup (map fst l) -> NoDup (map fst (zassoc_del i l)).
Proof.
  induction l as [|[k v] t IH]; simpl; intros H; [constructor|]. inversion H as [|a b Hn Hd]; subst.
  destruct (Z.eqb i k); simpl; [exact Hd|]. constructor; [|now apply IH].
  intros Hin. apply Hn. eapply zassoc_del_in; eauto.
Qed.

Lemma zassoc_del_spec {B} i j (l : list (idx * B)) : NoDup (map fst l) ->
  zassoc j (zassoc_del i l) = if Z.eqb j i then None else zassoc j l.
Proof.
  induction l as [|[k v] t IH]; simpl; intros H; [now destruct (Z.eqb j i)|]. inversion H as [|a b Hn Hd]; subst.
  destruct (Z.eqb_spec i k) as [->|Hik]; simpl.
  - destruct (Z.eqb_spec j k) as [->|]; [|reflexivity].
    destruct (zassoc k t) eqn:E; [|reflexivity]. exfalso. apply Hn, zassoc_in. congruence.
  - rewrite IH by exact Hd. destruct (Z.eqb_spec j k) as [->|]; [|reflexivity]. destruct (Z.eqb_spec k i); congruence.
Qed.

Lemma zinsert_perm i l : Permutation (zinsert i l) (i :: l).
Proof.
  induction l as [|h t IH]; simpl; [apply Permutation_refl|].
  destruct (i <=? h)%Z; [apply Permutation_refl|].
  eapply perm_trans; [apply perm_skip; exact IH|apply perm_swap].
Qed.

Lemma zsort_perm l : Permutation (zsort l) l.
Proof.
  induction l as [|h t IH]; simpl; [constructor|].
  eapply perm_trans; [apply zinsert_perm|]. now apply perm_skip.
Qed.

Lemma zsort_in l x : In x (zsort l) <-> In x l.
Proof. split; apply Permutation_in; [|symmetry]; apply zsort_perm. Qed.

Lemma zinsert_sorted i l : StronglySorted Z.lt l -> ~ In i l -> StronglySorted Z.lt (zinsert i l).
Proof.
  induction l as [|h t IH]; simpl; intros Hs Hn.
  - constructor; [constructor|constructor].
  - inversion Hs as [|a b Hst Hall]; subst. destruct (Z.leb_spec i h) as [Hle|Hgt].
    + assert (Hlt : (i < h)%Z) by (assert (i <> h) by (intros ->; apply Hn; now left); lia).
      constructor; [exact Hs|]. constructor; [exact Hlt|].
      rewrite Forall_forall in *. intros x Hx. specialize (Hall x Hx). lia.
    + constructor; [apply IH; tauto|]. rewrite Forall_forall in *. intros x Hx.
      apply (Permutation_in _ (zinsert_perm i t)) in Hx. destruct Hx as [<-|Hx]; [lia|now apply Hall].
Qed.

Lemma zsort_sorted l : NoDup l -> StronglySorted Z.lt (zsort l).
Proof.
  induction l as [|h t IH]; simpl; intros H; [constructor|]. inversion H as [|a b Hn Hd]; subst.
  apply zinsert_sorted; [now apply IH|]. now rewrite zsort_in.
Qed.

Lemma in_indices f j : In j (f_indices f) <-> zassoc j (f_includes f) <> None.
Proof. unfold f_indices. now rewrite zsort_in, zassoc_in. Qed.

Lemma index_in_bound i l p n : index_in i l p = Some n -> p <= n < p + length l.
Proof.
  revert p. induction l as [|h t IH]; simpl; intros p; [discriminate|].
  destruct (Z.eqb i h); [intros [= <-]; lia|]. intros H. apply IH in H. lia.
Qed.

Lemma f_rep_setIndex f i : f_rep (f_setIndex f i) = f_rep f.
Proof. unfold f_setIndex. destruct (f_isIndex f i); reflexivity. Qed.
Lemma f_appears_setIndex f i : f_appears (f_setIndex f i) = f_appears f.
Proof. unfold f_setIndex. destruct (f_isIndex f i); reflexivity. Qed.
Lemma f_index_setIndex f i : f_index (f_setIndex f i) = i.
Proof. unfold f_setIndex. destruct (f_isIndex f i); reflexivity. Qed.

Lemma setIndex_at f j : In j (f_indices f) -> f_setIndex f j = at_index f j.
Proof.
  intros H. apply in_indices in H. unfold f_setIndex, f_isIndex.
  destruct (zassoc j (f_includes f)); [reflexivity|congruence].
Qed.

(* setNextIndex, setPreviousIndex, setMinimumIndex and setMaximumIndex stay where they are or do what
   setIndex does: the index they move to is one of indices() *)
Definition moved (f g : filt) : Prop := g = f \/ exists i, g = f_setIndex f i.

Lemma setNext_moved f : moved f (fst (f_setNext f)).
Proof.
  unfold f_setNext. destruct (index_in _ _ _) as [i|] eqn:Ei; [|now left].
  destruct (S i =? _) eqn:El; [now left|]. right. exists (nth (S i) (f_indices f) 0%Z).
  symmetry. apply setIndex_at, nth_In. apply index_in_bound in Ei. apply Nat.eqb_neq in El. unfold idx in *. lia.
Qed.
Lemma setPrev_moved f : moved f (fst (f_setPrev f)).
Proof.
  unfold f_setPrev. destruct (index_in _ _ _) as [[|i]|] eqn:Ei; try now left. right. exists (nth i (f_indices f) 0%Z).
  symmetry. apply setIndex_at, nth_In. apply index_in_bound in Ei. unfold idx in *. lia.
Qed.
Lemma setMin_moved f : moved f (fst (f_setMin f)).
Proof. unfold f_setMin. destruct (f_indices f); simpl; [now left|right; eauto]. Qed.
Lemma setMax_moved f : moved f (fst (f_setMax f)).
Proof. unfold f_setMax. destruct (rev (f_indices f)); simpl; [now left|right; eauto]. Qed.

Lemma f_addSimplex_cases f fs id attr f' x : f_addSimplex f fs id attr = (f', x) ->
  f' = f /\ x = Raise ValueError \/
  existsb (fun t => f_containsSome f t && negb (f_contains f t)) fs = false /\
  exists r' y, addSimplex (f_rep f) fs id attr = (r', y) /\
    match y with
    | Raise e => f' = with_rep f r' /\ x = Raise e
    | Ok n => (x = Ok n \/ x = Raise KeyError) /\
              exists inc mo, f' = mkFilt r' (f_index f) (f_appears f ++ [(n, f_index f)]) inc mo
    end.
Proof.
  unfold f_addSimplex. destruct (existsb _ fs); [intros [= <- <-]; now left|].
  destruct (addSimplex (f_rep f) fs id attr) as [r' [n|e]].
  - destruct (zassoc (f_index f) (f_includes f)); [destruct (zassoc (f_index f) (f_maxOrders f))|];
      intros [= <- <-]; right; (split; [reflexivity|]); exists r', (Ok n); eauto 6.
  - intros [= <- <-]. right. split; [reflexivity|]. exists r', (Raise e). auto.
Qed.

Lemma f_addSimplex_ok f fs id attr f' n : f_addSimplex f fs id attr = (f', Ok n) ->
  addSimplex (f_rep f) fs id attr = (f_rep f', Ok n) /\ f_index f' = f_index f /\
  f_appears f' = f_appears f ++ [(n, f_index f)].
Proof.
  intros H. destruct (f_addSimplex_cases _ _ _ _ _ _ H) as [[_ [=]]|(_ & r' & [m|e] & E & Hf)].
  - destruct Hf as ([[= <-]|[=]] & inc & mo & ->). auto.
  - destruct Hf as [_ [=]].
Qed.

Lemma f_addSimplex_rep f fs id attr f' x : f_addSimplex f fs id attr = (f', x) ->
  f' = f \/ exists y, addSimplex (f_rep f) fs id attr = (f_rep f', y).
Proof.
  intros H. destruct (f_addSimplex_cases _ _ _ _ _ _ H) as [[-> _]|(_ & r' & y & E & Hf')]; [now left|right].
  exists y. destruct y; [destruct Hf' as (_ & inc & mo & ->)|destruct Hf' as [-> _]]; exact E.
Qed.

Lemma f_forceDelete_cases f s f' x : f_forceDelete f s = (f', x) ->
  (exists e, forceDeleteSimplex (f_rep f) s = (f_rep f, Raise e) /\ f' = f /\ x = Raise e) \/
  exists r', forceDeleteSimplex (f_rep f) s = (r', Ok tt) /\
    (assoc s (f_appears f) = None /\ f' = with_rep f r' /\ x = Raise KeyError \/
     exists i inc mo, assoc s (f_appears f) = Some i /\ x = Ok tt /\
       f' = mkFilt r' (f_index f) (assoc_del s (f_appears f)) inc mo).
Proof.
  unfold f_forceDelete. destruct (forceDeleteSimplex (f_rep f) s) as [r' [[]|e]] eqn:E.
  - destruct (assoc s (f_appears f)) as [i|].
    + destruct (_ && _); intros [= <- <-]; right; exists r'; (split; [reflexivity|]); right; eauto 6.
    + intros [= <- <-]. right. exists r'. auto.
  - apply forceDeleteSimplex_atomic in E. destruct E as [-> _]. intros [= <- <-]. left. exists e. now destruct f.
Qed.

(* Filtration.copy(): a fold over indices() of a fold over the simplices born at each *)
Definition copy_inner (f : filt) (acc : heap * filt * res unit) (s : name) : heap * filt * res unit :=
  match acc with
  | (_, _, Raise _) => acc
  | (hp2, c3, Ok _) =>
      let hs := match assoc s (r_attr (f_rep f)) with Some h => h | None => (0, 0) end in
      let '(r4, h') := alloc (f_rep c3) in
      let hp3 := heap_set hp2 h' (heap_get hp2 hs) in
      let c4 := with_rep c3 r4 in
      match f_orderOf f s with
      | Raise e => (hp3, c4, Raise e)
      | Ok k =>
          match f_addSimplex c4 (if k =? 0 then [] else faces (f_rep f) s) (Some s) (Some h') with
          | (c5, Raise e) => (hp3, c5, Raise e)
          | (c5, Ok _) => (hp3, c5, Ok tt)
          end
      end
  end.
Definition copy_batch (f : filt) (orders : list (idx * list name)) (ind : idx) : list name :=
  let own := match f_simplicesAddedAtIndex f ind false with Ok l => map snd l | Raise _ => [] end in
  match zassoc ind orders with
  | Some l => if seteq l own && nodupb l then l else own
  | None => own
  end.
Definition copy_outer (f : filt) orders (acc : heap * filt * res unit) (ind : idx) : heap * filt * res unit :=
  match acc with
  | (_, _, Raise _) => acc
  | (hp1, c1, Ok _) => fold_left (copy_inner f) (copy_batch f orders ind) (hp1, f_setIndex c1 ind, Ok tt)
  end.

Lemma f_copy_unfold hp f uid orders : f_copy hp f uid orders =
  match f_indices f with
  | [] => (hp, new_filt uid 0%Z, Raise IndexError)
  | i0 :: _ => let '(hp', c', x) := fold_left (copy_outer f orders) (f_indices f) (hp, new_filt uid i0, Ok tt) in
               (hp', f_setIndex c' i0, x)
  end.
Proof. reflexivity. Qed.

Lemma copy_inner_raise f s e a : copy_inner f (s, Raise e) a = (s, Raise e).
Proof. now destruct s. Qed.
Lemma copy_outer_raise f orders s e a : copy_outer f orders (s, Raise e) a = (s, Raise e).
Proof. now destruct s. Qed.

Section CopyInv.
  Variables (f : filt) (I : heap * filt -> Prop).
  Hypothesis I_set : forall hp c i, I (hp, c) -> I (hp, f_setIndex c i).
  Hypothesis I_alloc : forall hp c r h d, I (hp, c) -> alloc (f_rep c) = (r, h) -> I (heap_set hp h d, with_rep c r).
  Hypothesis I_add : forall hp c r h d fs id c' x, I (hp, c) -> alloc (f_rep c) = (r, h) ->
    f_addSimplex (with_rep c r) fs id (Some h) = (c', x) -> I (heap_set hp h d, c').

  Lemma copy_inner_I s u a s' x : I s -> copy_inner f (s, Ok u) a = (s', x) -> I s'.
  Proof.
    destruct s as [hp c]. intros H. cbn [copy_inner]. destruct (alloc (f_rep c)) as [r h] eqn:Ea. cbv zeta.
    destruct (f_orderOf f a) as [k|e]; [|intros [= <- _]; now apply I_alloc].
    destruct (f_addSimplex _ _ _ _) as [c5 y] eqn:EA.
    assert (H5 : I (heap_set hp h (heap_get hp match assoc a (r_attr (f_rep f)) with Some h0 => h0 | None => (0, 0) end), c5))
      by (eapply I_add; eauto).
    destruct y; intros [= <- _]; exact H5.
  Qed.

  Lemma copy_outer_I orders s u ind s' x : I s -> copy_outer f orders (s, Ok u) ind = (s', x) -> I s'.
  Proof.
    destruct s as [hp c]. intros H. cbn [copy_outer].
    apply (fold_stops_inv I (copy_inner f) (copy_inner_raise f) copy_inner_I). now apply I_set.
  Qed.

  Theorem f_copy_I hp uid orders hp' c x : (forall i, I (hp, new_filt uid i)) ->
    f_copy hp f uid orders = (hp', c, x) -> I (hp', c).
  Proof.
    intros I_new. rewrite f_copy_unfold. destruct (f_indices f) as [|i0 inds]; [intros [= <- <- _]; apply I_new|].
    destruct (fold_left _ _ _) as [[hp1 c1] x1] eqn:EF. intros [= <- <- _]. apply I_set.
    exact (fold_stops_inv I _ (copy_outer_raise f orders) (copy_outer_I orders) _ _ _ _ _ (I_new i0) EF).
  Qed.
End CopyInv.

Lemma contains_setIndex f i s : f_contains (f_setIndex f i) s = f_contains (at_index f i) s.
Proof. unfold f_contains. now rewrite f_rep_setIndex, f_appears_setIndex, f_index_setIndex. Qed.

Lemma simplices_setIndex f i b : f_simplices (f_setIndex f i) b = f_simplices (at_index f i) b.
Proof. unfold f_simplices. rewrite f_rep_setIndex. apply filter_ext. intros s. apply contains_setIndex. Qed.

Lemma f_contains_iff f s : f_contains f s = true <->
  containsSimplex (f_rep f) s = true /\ exists b, assoc s (f_appears f) = Some b /\ (b <= f_index f)%Z.
Proof.
  unfold f_contains. rewrite andb_true_iff. destruct (assoc s (f_appears f)) as [b|].
  - rewrite Z.leb_le. split; [intros [H1 H2]; eauto|intros (H1 & b' & [= <-] & H2); auto].
  - split; [intros [_ [=]]|intros (_ & b & [=] & _)].
Qed.

(* the complex seen at index i: exactly the simplices of the filtration added at indices <= i *)
Theorem view_def f i s :
  In s (f_simplices (at_index f i) false) <->
  In s (simplices (f_rep f) false) /\ containsSimplex (f_rep f) s = true /\
  exists b, assoc s (f_appears f) = Some b /\ (b <= i)%Z.
Proof. unfold f_simplices. rewrite filter_In, f_contains_iff. reflexivity. Qed.

Theorem view_monotone f i j s : (i <= j)%Z ->
  In s (f_simplices (at_index f i) false) -> In s (f_simplices (at_index f j) false).
Proof.
  intros Hij H. apply view_def in H. apply view_def. destruct H as (H1 & H2 & b & H3 & H4).
  repeat split; auto. exists b. split; auto. lia.
Qed.

Theorem contains_monotone f i j s : (i <= j)%Z ->
  f_contains (at_index f i) s = true -> f_contains (at_index f j) s = true.
Proof.
  rewrite !f_contains_iff. simpl. intros Hij (H & b & Hb & Hle). split; [exact H|]. exists b. split; [exact Hb|lia].
Qed.

Lemma addedAt_iff f s i : f_addedAtIndex f s = Ok i <->
  containsSimplex (f_rep f) s = true /\ assoc s (f_appears f) = Some i.
Proof.
  unfold f_addedAtIndex, f_containsSome. destruct (containsSimplex (f_rep f) s); [|split; [discriminate|intros [[=] _]]].
  destruct (assoc s (f_appears f)); split; [intros [= ->]; auto|intros [_ [= ->]]; reflexivity|discriminate|intros [_ [=]]].
Qed.

(* births: exactly the simplices of the representation have a birth index *)
Definition finv (f : filt) : Prop :=
  forall s, assoc s (f_appears f) = None <-> containsSimplex (f_rep f) s = false.

Lemma finv_new uid i : finv (new_filt uid i).
Proof. intros s. simpl. unfold containsSimplex. simpl. tauto. Qed.

Lemma finv_snoc f f' n i : finv f -> containsSimplex (f_rep f) n = false ->
  (forall s, containsSimplex (f_rep f') s = containsSimplex (f_rep f) s || name_eqb s n) ->
  f_appears f' = f_appears f ++ [(n, i)] -> finv f'.
Proof.
  intros Hf Hnew Hall Ea s. rewrite Ea, assoc_app, Hall. pose proof (Hf s) as Hs.
  destruct (name_eqb_spec s n) as [->|Hne].
  - apply Hf in Hnew. rewrite Hnew. simpl. rewrite name_eqb_refl, orb_true_r. split; discriminate.
  - rewrite orb_false_r. destruct (assoc s (f_appears f)); [exact Hs|]. simpl. now rewrite (name_eqb_neq s n).
Qed.

Theorem add_registers_birth f fs id attr f' n : pinv (f_rep f) -> finv f ->
  f_addSimplex f fs id attr = (f', Ok n) ->
  assoc n (f_appears f') = Some (f_index f) /\ f_index f' = f_index f /\
  (forall s, s <> n -> assoc s (f_appears f') = assoc s (f_appears f)) /\ finv f'.
Proof.
  intros Hinv Hf H. destruct (f_addSimplex_ok _ _ _ _ _ _ H) as (E & Hi & Ha).
  destruct (addSimplex_contains _ _ _ _ _ _ Hinv E) as [Hnew Hall].
  assert (Hn : assoc n (f_appears f) = None) by (now apply Hf).
  rewrite Ha. split; [|split; [exact Hi|split]].
  - rewrite assoc_app, Hn. simpl. now rewrite name_eqb_refl.
  - intros s Hs. rewrite assoc_app. destruct (assoc s (f_appears f)); auto. simpl. now rewrite (name_eqb_neq s n).
  - exact (finv_snoc f f' n (f_index f) Hf Hnew Hall Ha).
Qed.

(* C14: on this witness the queries that ignore the current index answer differently from the same
   queries on the snapshot taken at that index *)
Definition witness : filt :=
  let f0 := new_filt 1 0%Z in
  let f1 := fst (f_addSimplex f0 [] (Some (NStr "a")) None) in
  let f2 := fst (f_addSimplex f1 [] (Some (NStr "b")) None) in
  let f3 := f_setIndex f2 8%Z in
  let f4 := fst (f_addSimplex f3 [NStr "a"; NStr "b"] (Some (NStr "ab")) None) in
  f_setIndex f4 0%Z.
(* the snapshot at the current index, as snap() builds it *)
Definition snap_rep (f : filt) : rep := let '(_, r, _) := copy_new [] (f_view f) 9 in r.

Theorem maxOrder_ignores_index_refuted : maxOrder (f_rep witness) <> maxOrder (snap_rep witness).
Proof. vm_compute. discriminate. Qed.
Theorem simplicesOfOrder_ignores_index_refuted :
  simplicesOfOrder (f_rep witness) 1 <> simplicesOfOrder (snap_rep witness) 1.
Proof. vm_compute. discriminate. Qed.
Theorem bettiNumbers_ignores_index_refuted :
  bettiNumbers (f_rep witness) (Some [0]) <> bettiNumbers (snap_rep witness) (Some [0]).
Proof. vm_compute. discriminate. Qed.
Example witness_aware_queries_agree :
  f_simplices witness false = simplices (snap_rep witness) false /\
  f_numberOfSimplices witness = numberOfSimplices (snap_rep witness) /\
  f_numberOfSimplicesOfOrder witness = numberOfSimplicesOfOrder (snap_rep witness) /\
  f_eulerCharacteristic witness = eulerCharacteristic (snap_rep witness).
Proof. vm_compute. repeat split. Qed.

Theorem next_moves_to_adjacent f i : index_in (f_index f) (f_indices f) 0 = Some i ->
  S i < length (f_indices f) -> snd (f_setNext f) = Ok (nth (S i) (f_indices f) 0%Z).
Proof.
  intros H Hlt. unfold f_setNext. rewrite H. destruct (S i =? length (f_indices f)) eqn:E; [apply Nat.eqb_eq in E; lia|]. reflexivity.
Qed.
Theorem next_stays_at_the_end f i : index_in (f_index f) (f_indices f) 0 = Some i ->
  S i = length (f_indices f) -> f_setNext f = (f, Ok (f_index f)).
Proof. intros H E. unfold f_setNext. rewrite H. apply Nat.eqb_eq in E. now rewrite E. Qed.
Theorem prev_moves_to_adjacent f i : index_in (f_index f) (f_indices f) 0 = Some (S i) ->
  snd (f_setPrev f) = Ok (nth i (f_indices f) 0%Z).
Proof. intros H. unfold f_setPrev. now rewrite H. Qed.
Theorem prev_stays_at_the_start f : index_in (f_index f) (f_indices f) 0 = Some 0 -> f_setPrev f = (f, Ok (f_index f)).
Proof. intros H. unfold f_setPrev. now rewrite H. Qed.
