(* EqSets.v -- a == b forces the same set of simplices (C10): complexes that differ in any simplex
   (a highest-order one, a lone point, ...) are never equal.  Plain Coq. *)
From Coq Require Import String ZArith Bool Arith List Lia.
From SV Require Import Names NamesFacts ListFacts Rep Fresh Complex Atomic RepInv Cmp Shapes CopyFaithful.
Import ListNotations.
Open Scope nat_scope.

Theorem eq_same_simplices a b : pinv a -> pinv b -> c_eq a b = true ->
  forall s, containsSimplex a s = containsSimplex b s.
Proof.
  intros Pa Pb H s. unfold c_eq in H. apply andb_prop in H. destruct H as [Hle Hn]. apply Nat.eqb_eq in Hn.
  rewrite !numberOfSimplices_length in Hn by assumption.
  assert (Hincl : incl (simplices a false) (simplices b false)).
  { intros x Hx. apply In_simplices_iff in Hx; [|exact Pa]. apply In_simplices_iff; [exact Pb|].
    apply le_iff in Hle. apply (contains_iff_listed a x Pa) in Hx. destruct Hx as (k & Hk).
    assert (Hkn : k < r_nord a).
    { unfold simplicesOfOrder in Hk. destruct (k <? r_nord a) eqn:E; [now apply Nat.ltb_lt | destruct Hk]. }
    destruct (Hle k x Hkn Hk) as (Hc & _). exact Hc. }
  assert (Hincl2 : incl (simplices b false) (simplices a false)) by (apply NoDup_length_incl; [apply simplices_nodup, Pa | lia | exact Hincl]).
  destruct (containsSimplex a s) eqn:Ca.
  - symmetry. apply In_simplices_iff; [exact Pb|]. apply Hincl. now apply In_simplices_iff.
  - destruct (containsSimplex b s) eqn:Cb; [|reflexivity].
    apply In_simplices_iff in Cb; [|exact Pb]. apply Hincl2 in Cb. apply In_simplices_iff in Cb; [|exact Pa]. congruence.
Qed.

Corollary differ_in_a_simplex_never_equal a b s : pinv a -> pinv b ->
  containsSimplex a s <> containsSimplex b s -> c_eq a b = false /\ c_ne a b = true.
Proof.
  intros Pa Pb Hd. destruct (c_eq a b) eqn:E.
  - exfalso. apply Hd. now apply eq_same_simplices.
  - split; [reflexivity|]. unfold c_ne. now rewrite E.
Qed.
