(* Sweeps.v -- executable (boolean) statements of the set-theoretic properties over the model.  Those
   that follow from theorems about every complex are proved in SpecWf.v, SpecViews.v, SpecEffects.v and
   SweepsProved.v; the others are verified here BY COMPUTATION IN THE KERNEL over every complex on at
   most 4 labelled points (167 complexes; 19 on at most 3 points for the quadratic sweeps).  These
   are proofs for the stated finite domain only (the bound is part of every statement), not for all
   complexes. *)
From Coq Require Import String ZArith Bool Arith List Lia.
From SV Require Import Names Rep Complex Homology Filtration Gen World Small.
Import ListNotations.
Open Scope nat_scope.

Definition pt (n : nat) : name := NInt (Z.of_nat n).
Definition vset := list name.
Definition set_mem (V : vset) (F : list vset) : bool := existsb (seteq V) F.
Definition fam_sub (F G : list vset) : bool := forallb (fun V => set_mem V G) F.
Definition fam_eq (F G : list vset) : bool := fam_sub F G && fam_sub G F && (length F =? length G).
Fixpoint sublists {A} (l : list A) : list (list A) :=
  match l with [] => [[]] | x :: t => let r := sublists t in map (cons x) r ++ r end.
Definition nonempty_sublists {A} (l : list A) : list (list A) :=
  filter (fun s => negb (length s =? 0)) (sublists l).
Fixpoint dedup_sets (F : list vset) : list vset :=
  match F with [] => [] | V :: t => if set_mem V t then dedup_sets t else V :: dedup_sets t end.

(* the family of a representation, read through basisOf *)
Definition fam (r : rep) : list vset := map (basisOf r) (simplices r false).
(* the family a list of maximal simplices generates *)
Definition closure_of (facets : list (list nat)) : list vset :=
  dedup_sets (flat_map (fun f => nonempty_sublists (map pt f)) facets).

(* build a complex: its points in increasing order, then its maximal simplices by basis *)
Definition points_of (facets : list (list nat)) : list nat :=
  filter (fun p => existsb (fun f => existsb (Nat.eqb p) f) facets) (seq 0 6).
Definition build (facets : list (list nat)) : rep :=
  let r0 := fold_left (fun r p => fst (addSimplex r [] (Some (pt p)) None)) (points_of facets) (empty_rep 1) in
  fold_left (fun r f => if length f <=? 1 then r else fst (c_addSimplexWithBasis r (map pt f) None None)) facets r0.

(* well-formedness (the C01 sentence) as a boolean *)
Definition ord (r : rep) (s : name) : nat := match orderOf r s with Ok k => k | Raise _ => 99 end.
Definition wfb (r : rep) : bool :=
  let ss := simplices r false in
  nodupb ss &&
  forallb (fun s =>
    let k := ord r s in
    (length (basisOf r s) =? S k) && nodupb (basisOf r s) &&
    forallb (fun b => containsSimplex r b && (ord r b =? 0)) (basisOf r s) &&
    (if k =? 0 then (length (faces r s) =? 0) && seteq (basisOf r s) [s]
     else (length (faces r s) =? S k) && nodupb (faces r s) &&
          forallb (fun f => containsSimplex r f && (S (ord r f) =? k)) (faces r s) &&
          fam_eq (map (basisOf r) (faces r s))
                 (filter (fun V => length V =? k) (nonempty_sublists (basisOf r s))))) ss &&
  (* no two simplices share a basis *)
  (length (dedup_sets (fam r)) =? length ss) &&
  (* maxOrder is the largest populated order; listings partition simplices() *)
  (match r_nord r with 0 => length ss =? 0 | S m => negb (length (simplicesOfOrder r m) =? 0) end) &&
  (length (concat (map (simplicesOfOrder r) (seq 0 (r_nord r)))) =? length ss) &&
  forallb (fun k => forallb (fun s => ord r s =? k) (simplicesOfOrder r k)) (seq 0 (r_nord r)).

(* C03: the views agree *)
Definition bent (m : mat) (i j : nat) : bool := nth i (nth j (mcols m) []) false.
Definition viewsb (r : rep) : bool :=
  forallb (fun k =>
    let B := boundaryOperator r k in
    if k =? 0 then (nrows B =? 1) && (ncols B =? length (simplicesOfOrder r 0)) &&
                   forallb (fun j => negb (bent B 0 j)) (seq 0 (ncols B))
    else if r_nord r <=? k then (nrows B =? 0) && (ncols B =? 0)
    else (nrows B =? length (simplicesOfOrder r (k - 1))) && (ncols B =? length (simplicesOfOrder r k)) &&
         forallb (fun j => forallb (fun i =>
            Bool.eqb (bent B i j)
                     (memn (nth i (simplicesOfOrder r (k - 1)) (NInt 0)) (faces r (nth j (simplicesOfOrder r k) (NInt 0)))))
            (seq 0 (nrows B))) (seq 0 (ncols B)))
    (seq 0 (S (r_nord r))) &&
  forallb (fun s =>
    (* cofaces is the inverse of faces *)
    forallb (fun t => Bool.eqb (memn t (cofaces r s)) (memn s (faces r t))) (simplices r false) &&
    (* index = position in the listing of its order *)
    (match indexOf r s with Ok i => name_eqb (nth i (simplicesOfOrder r (ord r s)) (NInt (-1))) s | Raise _ => false end) &&
    (* basis = points of the closure *)
    (match closureOf r s false false with
     | Ok cl => seteq (basisOf r s) (filter (fun t => ord r t =? 0) cl)
     | Raise _ => false end) &&
    (* boundary of the boundary is empty *)
    (match boundary r [s] with
     | Ok b => match boundary r b with Ok bb => length bb =? 0 | Raise _ => length b =? 0 end
     | Raise _ => false end))
    (simplices r false).

(* C02: effects and frames *)
Definition same_simplex (r r' : rep) (s : name) : bool :=
  containsSimplex r' s && (ord r' s =? ord r s) && seteq (faces r' s) (faces r s) && seteq (basisOf r' s) (basisOf r s).
Definition frame (r r' : rep) (kept : name -> bool) : bool :=
  forallb (fun s => if kept s then same_simplex r r' s else negb (containsSimplex r' s)) (simplices r false).

Definition chk_delete (r : rep) : bool :=
  forallb (fun s =>
    let '(r', x) := deleteSimplex r s in
    let kept := fun t => negb (subsetn (basisOf r s) (basisOf r t)) in
    (match x with Ok _ => true | Raise _ => false end) &&
    fam_eq (fam r') (filter (fun V => negb (subsetn (basisOf r s) V)) (fam r)) && frame r r' kept && wfb r' && viewsb r')
    (simplices r false).

Definition chk_restrict (r : rep) : bool :=
  forallb (fun B =>
    let '(r', x) := restrictBasisTo r B in
    (match x with Ok _ => true | Raise _ => false end) &&
    fam_eq (fam r') (filter (fun V => subsetn V B) (fam r)) && frame r r' (fun t => subsetn (basisOf r t) B) && wfb r')
    (sublists (simplicesOfOrder r 0)).

Definition chk_addb (r : rep) : bool :=
  let cand := filter (fun V => (2 <=? length V) && negb (set_mem V (fam r)))
                     (sublists (simplicesOfOrder r 0 ++ [NStr "new"])) in
  forallb (fun V =>
    match c_addSimplexWithBasis r V (Some (NStr "top")) None with
    | (r', Ok n) =>
        name_eqb n (NStr "top") && seteq (basisOf r' n) V &&
        fam_eq (fam r') (dedup_sets (fam r ++ nonempty_sublists V)) && frame r r' (fun _ => true) && wfb r' && viewsb r'
    | (_, Raise _) => false
    end) cand.

Definition chk_subdiv (r : rep) : bool :=
  forallb (fun s =>
    if ord r s =? 0 then true else
    let V := basisOf r s in
    match barycentricSubdivide r s V with
    | (r', Ok m) =>
        negb (containsSimplex r m) &&
        fam_eq (fam r')
               (dedup_sets (filter (fun U => negb (subsetn V U)) (fam r) ++
                            map (fun A => A ++ [m]) (filter (fun A => negb (length A =? length V)) (sublists V)))) &&
        frame r r' (fun t => negb (subsetn V (basisOf r t))) && wfb r'
    | (_, Raise _) => false
    end) (simplices r false).

(* C04: closure, star, lookups, disjointness *)
Fixpoint sorted_by (le : nat -> nat -> bool) (l : list nat) : bool :=
  match l with [] => true | x :: t => match t with [] => true | y :: _ => le x y && sorted_by le t end end.
Definition chk_listing (r : rep) (s : name) (got : res (list name)) (want : list name) (rev excl : bool) : bool :=
  match got with
  | Raise _ => false
  | Ok l =>
      let want' := if excl then filter (fun t => negb (name_eqb t s)) want else want in
      nodupb l && seteq l want' && sorted_by (if rev then fun a b => b <=? a else Nat.leb) (map (ord r) l)
  end.
Definition chk_closure_star (r : rep) : bool :=
  forallb (fun s =>
    let clo := filter (fun t => subsetn (basisOf r t) (basisOf r s)) (simplices r false) in
    let star := filter (fun t => subsetn (basisOf r s) (basisOf r t)) (simplices r false) in
    (length clo =? Nat.pow 2 (S (ord r s)) - 1) &&
    forallb (fun rev => forallb (fun excl =>
      chk_listing r s (closureOf r s rev excl) clo rev excl && chk_listing r s (partOf r s rev excl) star rev excl)
      [false; true]) [false; true] &&
    (match c_simplexWithBasis r (rev (basisOf r s)) false with Ok (Some t) => name_eqb t s | _ => false end) &&
    (if ord r s =? 0 then true
     else match c_simplexWithFaces r (rev (faces r s)) with Ok (Some t) => name_eqb t s | _ => false end))
    (simplices r false) &&
  (* vertex sets that are no simplex are not found *)
  forallb (fun V => if (2 <=? length V) && negb (set_mem V (fam r))
                    then match c_simplexWithBasis r V false with Ok None => true | _ => false end else true)
          (sublists (simplicesOfOrder r 0)).

Definition closure_names (r : rep) (s : name) : list name :=
  filter (fun t => subsetn (basisOf r t) (basisOf r s)) (simplices r false).
Fixpoint pairwise_disjoint (r : rep) (l : list name) : bool :=
  match l with
  | [] => true
  | s :: t => forallb (fun u => length (intern (closure_names r s) (closure_names r u)) =? 0) t && pairwise_disjoint r t
  end.
Definition tuples3 {A} (l : list A) : list (list A) :=
  map (fun x => [x]) l ++ flat_map (fun x => map (fun y => [x; y]) l) l ++
  flat_map (fun x => flat_map (fun y => map (fun z => [x; y; z]) l) l) l.
Definition chk_disjoint (r : rep) : bool :=
  forallb (fun t => match disjoint r t with Ok b => Bool.eqb b (pairwise_disjoint r t) | Raise _ => false end)
          (tuples3 (simplices r false)).

(* C11: the flag complex is the clique complex *)
Definition is_edge (r : rep) (p q : name) : bool := set_mem [p; q] (filter (fun V => length V =? 2) (fam r)).
Fixpoint clique (r : rep) (V : vset) : bool :=
  match V with [] => true | p :: t => forallb (is_edge r p) t && clique r t end.
Definition clique_family (r : rep) : list vset :=
  filter (fun V => (length V =? 1) || clique r V) (nonempty_sublists (simplicesOfOrder r 0)).
Definition chk_flag (r : rep) : bool :=
  match flagComplex [] r 7 with
  | (_, f, Ok _) =>
      fam_eq (fam f) (clique_family r) && frame r f (fun _ => true) && wfb f &&
      (match flagComplex [] f 8 with (_, g, Ok _) => fam_eq (fam g) (fam f) | _ => false end)
  | _ => false
  end.

(* C17: decoding the encoding gives the complex back *)
Fixpoint list_eqb (a b : list name) : bool :=
  match a, b with
  | [], [] => true
  | x :: a', y :: b' => name_eqb x y && list_eqb a' b'
  | _, _ => false
  end.
Definition chk_json (r : rep) : bool :=
  match decode [] (empty_rep 5) (encode_view [] (view_of r)) with
  | (_, d, Ok _) =>
      (* same names in the same listing order, same orders and faces *)
      forallb (fun k => list_eqb (simplicesOfOrder d k) (simplicesOfOrder r k)) (seq 0 (S (r_nord r))) &&
      (r_nord d =? r_nord r) && frame r d (fun _ => true) && wfb d
  | _ => false
  end.

(* C16: compose of two complexes whose names are tied to their vertex sets *)
(* names tied to bases: the simplex on {p1 < p2 < ...} is named by the tuple of its points *)
Definition tname (f : list nat) : name := match f with [p] => pt p | _ => NTup (map pt f) end.
Definition faces_of (f : list nat) : list (list nat) :=
  match f with [_] => [] | _ => filter (fun g => length g =? length f - 1) (sublists f) end.
Definition all_simplices (facets : list (list nat)) : list (list nat) :=
  (* every non-empty subset of a facet, points first *)
  let l := flat_map nonempty_sublists facets in
  let ded := fold_right (fun x acc => if existsb (fun y => list_eqb (map pt x) (map pt y)) acc then acc else x :: acc) [] l in
  flat_map (fun k => filter (fun x => length x =? k) ded) (seq 1 6).
Definition build_named (uid : nat) (facets : list (list nat)) : rep :=
  fold_left (fun r f => fst (addSimplex r (map tname (faces_of f)) (Some (tname f)) None)) (all_simplices facets) (empty_rep uid).
Definition chk_compose (c1 c2 : list (list nat)) : bool :=
  let a := build_named 1 c1 in let b := build_named 2 c2 in
  match compose [] a b None 3 with
  | (_, d, Ok _) =>
      fam_eq (fam d) (dedup_sets (fam a ++ fam b)) && frame a d (fun _ => true) && frame b d (fun _ => true) && wfb d
  | _ => false
  end.
(* a single-name perturbation: b's copy of a shared edge gets the name of another edge of a *)
Definition chk_compose_incompatible : bool :=
  let a := build_named 1 [[0; 1]; [1; 2]] in
  let b := fst (relabelSimplex (fst (relabelSimplex (build_named 2 [[1; 2]]) (tname [1; 2]) (NStr "tmp")))
                                 (NStr "tmp") (tname [0; 1])) in
  match compose [] a b None 3 with (_, _, Raise ValueError) => true | _ => false end.

(* C12: Vietoris-Rips from a closeness relation *)
Definition all_pairs (n : nat) : list (nat * nat) :=
  flat_map (fun i => map (fun j => (i, j)) (seq (S i) (n - S i))) (seq 0 n).
Definition points_rep (n : nat) : rep :=
  fold_left (fun r p => fst (addSimplex r [] (Some (pt p)) None)) (seq 0 n) (empty_rep 1).
Definition vr_model (n : nat) (close : list (nat * nat)) : option rep :=
  match vr_build 2 (points_rep n) close with
  | (g, Ok _) => match flagComplex [] g 3 with (_, f, Ok _) => Some f | _ => None end
  | _ => None
  end.
Definition close_set (close : list (nat * nat)) (V : vset) : bool :=
  (* every two points of V are a close pair *)
  (fix go (l : vset) : bool :=
     match l with
     | [] => true
     | p :: t => forallb (fun q => existsb (fun ij => (seteq [pt (fst ij); pt (snd ij)] [p; q])) close) t && go t
     end) V.
Definition chk_vr (n : nat) (close : list (nat * nat)) : bool :=
  match vr_model n close with
  | Some f =>
      fam_eq (fam f) (filter (fun V => (length V =? 1) || close_set close V) (nonempty_sublists (map pt (seq 0 n)))) &&
      list_eqb (simplicesOfOrder f 0) (map pt (seq 0 n)) && wfb f
  | None => false
  end.
Definition chk_vr_monotone (n : nat) (c1 c2 : list (nat * nat)) : bool :=
  (* c1 is a sub-relation of c2 => the family at c1 is contained in the family at c2 *)
  if forallb (fun p => existsb (fun q => (fst p =? fst q) && (snd p =? snd q)) c2) c1 then
    match vr_model n c1, vr_model n c2 with
    | Some f1, Some f2 => fam_sub (fam f1) (fam f2)
    | _, _ => false
    end
  else true.

(* C18: generators, for every parameter in the stated range *)
Definition counts (r : rep) : list nat := numberOfSimplicesOfOrder r.
Definition bettisN (r : rep) : list Z := map (fun k => betti1 r k) (seq 0 (r_nord r)).
Definition binom_row (n top : nat) : list nat :=      (* C(n, 1), C(n, 2), ..., C(n, top) *)
  map (fun j => length (filter (fun s => length s =? j) (sublists (seq 0 n)))) (seq 1 top).
Definition unit_betti (n : nat) : list Z := 1%Z :: repeat 0%Z (n - 1).
Definition gen_on_empty (g : rep -> rep * res unit) : rep := fst (g (empty_rep 1)).
Definition chk_k_simplex (k : nat) : bool :=
  let r := gen_on_empty (k_simplex k (Some (NStr "top")) None) in
  list_eqb (map pt (counts r)) (map pt (binom_row (S k) (S k))) &&
  (if list_eq_dec Z.eq_dec (bettisN r) (unit_betti (S k)) then true else false) &&
  containsSimplex r (NStr "top") && (ord r (NStr "top") =? k) && wfb r.
Definition chk_k_void (k : nat) : bool :=
  let r := gen_on_empty (k_void k) in
  list_eqb (map pt (counts r)) (map pt (binom_row (k + 2) (S k))) &&
  (if list_eq_dec Z.eq_dec (bettisN r)
        (match k with 0 => [2%Z] | _ => 1%Z :: repeat 0%Z (k - 1) ++ [1%Z] end) then true else false) && wfb r.
Definition chk_k_skeleton (k : nat) : bool :=
  let r := gen_on_empty (k_skeleton k) in
  list_eqb (map pt (counts r)) (map pt (match k with 0 => [1] | _ => [S k; length (filter (fun s => length s =? 2) (sublists (seq 0 (S k))))] end)) && wfb r.
Definition chk_ring (n : nat) : bool :=
  let r := gen_on_empty (ring n) in
  if n <=? 2 then (match snd (ring n (empty_rep 1)) with Raise ValueError => true | _ => false end)
  else list_eqb (map pt (counts r)) [pt n; pt n] &&
       (if list_eq_dec Z.eq_dec (bettisN r) [1%Z; 1%Z] then true else false) &&
       forallb (fun p => length (cofaces r p) =? 2) (simplicesOfOrder r 0) && wfb r.
Definition chk_lattice (rows cols : nat) : bool :=
  let r := fst (triangularLattice rows cols 1) in
  (length (simplicesOfOrder r 0) =? rows * cols) &&
  (if 2 <=? rows then
     (if Z.eq_dec (eulerCharacteristic r) 1%Z then true else false) &&
     (if list_eq_dec Z.eq_dec (bettisN r) (unit_betti (r_nord r)) then true else false) && (r_nord r <=? 3) && wfb r
   else true).
(* generators into an existing target leave it intact: every complex on <= 3 points as target *)
Definition chk_gen_frame (c : list (list nat)) : bool :=
  let r := build c in
  forallb (fun g : rep -> rep * res unit =>
             match g r with
             | (r', Ok _) => frame r r' (fun _ => true) && wfb r' &&
                             forallb (fun s => containsSimplex r s || forallb (fun b => negb (containsSimplex r b)) (basisOf r' s))
                                     (simplices r' false)
             | _ => false
             end)
          [k_simplex 2 None None; k_void 1; k_void 2; k_skeleton 2; ring 3; k_simplex 0 None None].

Lemma sweep_closure_star4 : forallb (fun c => chk_closure_star (build c)) complexes4 = true.
Proof. vm_compute. reflexivity. Qed.
Lemma sweep_disjoint3 : forallb (fun c => chk_disjoint (build c)) complexes3 = true.
Proof. vm_compute. reflexivity. Qed.
Lemma sweep_json4 : forallb (fun c => chk_json (build_named 1 c) && chk_json (build c)) complexes4 = true.
Proof. vm_compute. reflexivity. Qed.
Lemma sweep_compose3 : forallb (fun c1 => forallb (fun c2 => chk_compose c1 c2) complexes3) complexes3 = true.
Proof. vm_compute. reflexivity. Qed.
Lemma sweep_compose_incompatible : chk_compose_incompatible = true.
Proof. vm_compute. reflexivity. Qed.
Lemma sweep_vr4 : forallb (fun n => forallb (chk_vr n) (sublists (all_pairs n))) (seq 0 5) = true.
Proof. vm_compute. reflexivity. Qed.

(* bettisN asks for the Smith normal form of every boundary operator twice (as d_k for b_k and as
   d_(k+1) for b_(k-1)).  Taken from one list, each form is reduced once by an evaluation that shares
   what it has computed, as the kernel's lazy reduction does; for the lattices, where the reduction
   is the dear part, the sweep runs on this reading. *)
Definition bettis_shared (r : rep) : list Z :=
  let forms := map (smithNormalForm r) (seq 0 (S (r_nord r))) in
  let form k := nth k forms (0, 0, []) in
  map (fun k => (Z.of_nat (kernelDim (form k)) - Z.of_nat (imageDim (form (S k))))%Z) (seq 0 (r_nord r)).

Lemma bettis_shared_eq r : bettis_shared r = bettisN r.
Proof.
  assert (E : forall j, j <= r_nord r ->
              nth j (map (smithNormalForm r) (seq 0 (S (r_nord r)))) (0, 0, []) = smithNormalForm r j).
  { intros j Hj. rewrite (nth_indep _ _ (smithNormalForm r 0)) by (rewrite map_length, seq_length; lia).
    now rewrite map_nth, seq_nth by lia. }
  apply map_ext_in. intros k Hk. apply in_seq in Hk. unfold betti1. now rewrite !E by lia.
Qed.

Definition chk_lattice_shared (rows cols : nat) : bool :=
  let r := fst (triangularLattice rows cols 1) in
  (length (simplicesOfOrder r 0) =? rows * cols) &&
  (if 2 <=? rows then
     (if Z.eq_dec (eulerCharacteristic r) 1%Z then true else false) &&
     (if list_eq_dec Z.eq_dec (bettis_shared r) (unit_betti (r_nord r)) then true else false) && (r_nord r <=? 3) && wfb r
   else true).

Lemma sweep_lattices_shared : forallb (fun r => forallb (chk_lattice_shared r) (seq 1 6)) (seq 1 6) = true.
Proof. vm_compute. reflexivity. Qed.

Lemma sweep_lattices : forallb (fun r => forallb (chk_lattice r) (seq 1 6)) (seq 1 6) = true.
Proof.
  pose proof sweep_lattices_shared as H. rewrite forallb_forall in *. intros rows Hr. specialize (H rows Hr).
  rewrite forallb_forall in *. intros cols Hc. rewrite <- (H cols Hc).
  unfold chk_lattice, chk_lattice_shared. cbv zeta. now rewrite bettis_shared_eq.
Qed.
Lemma sweep_generators_frame3 : forallb chk_gen_frame complexes3 = true.
Proof. vm_compute. reflexivity. Qed.

(* the checkers can fail: a triangle whose edge was force-deleted is not well formed; a family is
   not that of another complex; and the hollow tetrahedron is filled by flagComplex *)
Example checkers_reject_a_broken_complex :
  let r := build [[0; 1; 2]] in
  let broken := fst (forceDeleteSimplex r (NStr "1d1")) in
  wfb r = true /\ viewsb r = true /\ wfb broken = false /\
  chk_flag (fst (deleteSimplex (build [[0; 1; 2; 3]]) (NStr "3d0"))) = true /\
  fam_eq (fam r) (closure_of [[0; 1]]) = false.
Proof. vm_compute. repeat split. Qed.

Lemma lift {A} (p : A -> bool) (l : list A) : forallb p l = true -> forall x, In x l -> p x = true.
Proof. intros H x Hx. rewrite forallb_forall in H. now apply H. Qed.

Theorem closure_star_upto4 : forall c, In c complexes4 -> chk_closure_star (build c) = true.
Proof. exact (lift _ _ sweep_closure_star4). Qed.
Theorem disjoint_upto3 : forall c, In c complexes3 -> chk_disjoint (build c) = true.
Proof. exact (lift _ _ sweep_disjoint3). Qed.
Theorem json_upto4 : forall c, In c complexes4 -> chk_json (build_named 1 c) && chk_json (build c) = true.
Proof. exact (lift _ _ sweep_json4). Qed.
Theorem compose_upto3 : forall c1 c2, In c1 complexes3 -> In c2 complexes3 -> chk_compose c1 c2 = true.
Proof. intros c1 c2 H1 H2. exact (lift _ _ (lift _ _ sweep_compose3 c1 H1) c2 H2). Qed.
Theorem generators_frame_upto3 : forall c, In c complexes3 -> chk_gen_frame c = true.
Proof. exact (lift _ _ sweep_generators_frame3). Qed.
