(* SpecSets.v -- the vocabulary the checkers of Sweeps.v are written in (set_mem, fam_sub, fam_eq,
   dedup_sets, sublists, fam, ord), read as statements about sameset, In, NoDup and length.  Plain Coq. *)
From Coq Require Import String ZArith Bool Arith List Lia.
From SV Require Import Names NamesFacts ListFacts Rep RepInv Shapes Closed CopyFaithful BasisInv VInv AwbSpec VSets ClosureCount Sweeps.
Import ListNotations.
Open Scope nat_scope.

Definition covers (F G : list (list name)) : Prop := forall V, In V F -> exists W, In W G /\ sameset V W.
Definition distinct_sets (F : list (list name)) : Prop :=
  NoDup F /\ forall V W, In V F -> In W F -> sameset V W -> V = W.

Lemma set_mem_spec V F : set_mem V F = true <-> exists W, In W F /\ sameset V W.
Proof.
  unfold set_mem. rewrite existsb_exists.
  split; intros (W & HW & E); exists W; split; auto; now apply seteq_sameset.
Qed.

Lemma fam_sub_spec F G : fam_sub F G = true <-> covers F G.
Proof.
  unfold fam_sub. rewrite forallb_forall.
  split; intros H V HV; apply set_mem_spec; auto.
Qed.

Lemma fam_eq_spec (F G : list (list name)) : fam_eq F G = true <-> covers F G /\ covers G F /\ length F = length G.
Proof. unfold fam_eq. rewrite !andb_true_iff, !fam_sub_spec, Nat.eqb_eq. tauto. Qed.

Lemma distinct_filter p F : distinct_sets F -> distinct_sets (filter p F).
Proof.
  intros [Nd Inj]. split; [now apply NoDup_filter|].
  intros V W HV HW. apply filter_In in HV, HW. apply Inj; tauto.
Qed.

Lemma distinct_sets_map {A} (f : A -> list name) (l : list A) : NoDup l ->
  (forall x y, In x l -> In y l -> sameset (f x) (f y) -> x = y) -> distinct_sets (map f l).
Proof.
  intros Nd Inj. split.
  - apply NoDup_map_inj_in; [exact Nd|]. intros x y Hx Hy E. apply Inj; auto. rewrite E. apply sameset_refl.
  - intros V W HV HW E. apply in_map_iff in HV, HW.
    destruct HV as (x & <- & Hx). destruct HW as (y & <- & Hy). f_equal. now apply Inj.
Qed.

Lemma distinct_length_le F G : distinct_sets F -> covers F G -> length F <= length G.
Proof.
  intros [Nd Inj] H. apply (pigeon sameset F G Nd H).
  intros V V' W HV HV' E E'. apply Inj; auto. exact (sameset_trans _ _ _ E (sameset_sym _ _ E')).
Qed.

Lemma fam_eq_distinct F G : distinct_sets F -> distinct_sets G -> covers F G -> covers G F -> fam_eq F G = true.
Proof.
  intros DF DG CF CG. apply fam_eq_spec. split; [exact CF|]. split; [exact CG|].
  apply Nat.le_antisymm; now apply distinct_length_le.
Qed.

Lemma dedup_sets_incl F V : In V (dedup_sets F) -> In V F.
Proof. induction F as [|U F IH]; simpl; [tauto|]. destruct (set_mem U F); simpl; tauto. Qed.

Lemma dedup_sets_covers F : covers F (dedup_sets F).
Proof.
  induction F as [|U F IH]; intros V; simpl; [tauto|]. intros [->|H].
  - destruct (set_mem V F) eqn:M; [|exists V; split; [now left | apply sameset_refl]].
    apply set_mem_spec in M. destruct M as (W & HW & E). destruct (IH W HW) as (W' & HW' & E').
    exists W'. split; [exact HW' | exact (sameset_trans _ _ _ E E')].
  - destruct (IH V H) as (W & HW & E). exists W. split; [|exact E]. destruct (set_mem U F); [exact HW | now right].
Qed.

Lemma kept_is_new U F W : set_mem U F = false -> In W F -> ~ sameset U W.
Proof. intros M HW E. assert (set_mem U F = true); [|congruence]. apply set_mem_spec. eauto. Qed.

Lemma distinct_dedup F : distinct_sets (dedup_sets F).
Proof.
  induction F as [|U F [Nd Inj]]; simpl; [split; [constructor | intros V W []]|].
  destruct (set_mem U F) eqn:M; [now split|].
  assert (Hn : forall W, In W (dedup_sets F) -> ~ sameset U W).
  { intros W HW. apply (kept_is_new U F W M). now apply dedup_sets_incl. }
  split.
  - constructor; [|exact Nd]. intros H. exact (Hn U H (sameset_refl U)).
  - intros V W [<-|HV] [<-|HW] E; auto; [destruct (Hn W HW E) | destruct (Hn V HV (sameset_sym _ _ E))].
Qed.

Lemma dedup_sets_id F : distinct_sets F -> dedup_sets F = F.
Proof.
  intros [Nd Inj]. induction F as [|U F IH]; simpl; [reflexivity|]. inversion Nd as [|? ? HU NdF]; subst.
  rewrite IH; [|exact NdF | intros V W HV HW; apply Inj; now right].
  destruct (set_mem U F) eqn:M; [|reflexivity].
  apply set_mem_spec in M. destruct M as (W & HW & E).
  destruct HU. rewrite (Inj U W); auto; [now left | now right].
Qed.

Lemma sublists_subseqs {A} (l : list A) : sublists l = subseqs l.
Proof. induction l as [|x t IH]; simpl; [reflexivity | now rewrite IH]. Qed.

Lemma In_nonempty_sublists {A} (l V : list A) : In V (nonempty_sublists l) <-> In V (subseqs l) /\ V <> [].
Proof.
  unfold nonempty_sublists. rewrite filter_In, sublists_subseqs. split; intros [H E]; (split; [exact H|]).
  - intros ->. discriminate.
  - now destruct V.
Qed.

Lemma subset_as_sublist (B l : list name) : incl B l -> B <> [] -> exists W, In W (nonempty_sublists l) /\ sameset B W.
Proof.
  intros Hi Hne. exists (filter (fun q => memn q B) l).
  assert (E : sameset B (filter (fun q => memn q B) l)) by (intros q; rewrite filter_In, memn_In; split; [auto | tauto]).
  split; [|exact E]. apply In_nonempty_sublists. split; [apply filter_is_subseq|].
  intros E0. rewrite E0 in E. destruct B as [|q B]; [congruence | exact (proj1 (E q) (or_introl eq_refl))].
Qed.

Lemma filter_length_cons {A} (x : A) k L :
  filter (fun V => length V =? S k) (map (cons x) L) = map (cons x) (filter (fun V => length V =? k) L).
Proof.
  induction L as [|V L IH]; [reflexivity|]. cbn [map filter]. rewrite IH.
  change (length (x :: V) =? S k) with (length V =? k). now destruct (length V =? k).
Qed.

(* the sublists of a given length are itertools' combinations *)
Lemma sublists_of_length {A} (l : list A) : forall k, filter (fun V => length V =? k) (sublists l) = combs k l.
Proof.
  induction l as [|x t IH]; intros [|k]; try reflexivity; cbn [sublists combs]; rewrite filter_app, IH.
  - replace (filter _ (map (cons x) (sublists t))) with (@nil (list A)); [now destruct t|].
    clear IH. induction (sublists t) as [|V L IHL]; simpl; auto.
  - now rewrite filter_length_cons, IH.
Qed.

Lemma nonempty_sublists_of_length {A} (l : list A) k :
  filter (fun V => length V =? S k) (nonempty_sublists l) = combs (S k) l.
Proof.
  rewrite <- sublists_of_length. unfold nonempty_sublists.
  induction (sublists l) as [|V L IH]; simpl; [reflexivity|].
  destruct V; simpl; [exact IH | now rewrite IH].
Qed.

Lemma In_fam r V : pinv r -> (In V (fam r) <-> exists t, containsSimplex r t = true /\ basisOf r t = V).
Proof.
  intros P. unfold fam. rewrite in_map_iff.
  split; intros (t & E & Ht); exists t; split; auto; now apply (In_simplices_iff r t P).
Qed.

Lemma distinct_fam r : vinv r -> distinct_sets (fam r).
Proof.
  intros Hv. pose proof (vinv_pinv r Hv) as P.
  apply distinct_sets_map; [apply simplices_nodup, P|].
  intros t u Ht Hu. apply (v_uniq r Hv); now apply (In_simplices_iff r _ P).
Qed.

Lemma ord_assoc r s k j : assoc s (r_simp r) = Some (k, j) -> ord r s = k.
Proof. intros A. unfold ord, orderOf. now rewrite A. Qed.
