(* ClosedReach.v -- histories of public operations of base.py on one complex (pop, pstep), the
   lemma that carries along every such history whatever ReachGen.v's hypotheses hold of
   (public_history_I), and its instance at the face-count invariant of Closed.v (C01).  Plain Coq. *)
From Coq Require Import String ZArith Bool Arith List Lia.
From SV Require Import Names NamesFacts ListFacts Rep Fresh Complex Atomic RepInv Shapes Incidence AddEffect.
From SV Require Import DelEffect StarOrder Closed ReachGen.
Import ListNotations.
Open Scope nat_scope.

Inductive pop :=
| PAdd (fs : list name) (id : option name) (attr : option handle)
| PAddB (bs : list name) (id : option name) (attr : option handle)
| PEnsure (bs : list name) (attr : option handle)
| PAddFrom (hp : heap) (src : srcview) (rn : ren)
| PDelete (s : name) | PDeleteB (bs : list name) | PDeletes (ss : list name)
| PRestrict (bs : list name)
| PSubdivide (s : name) (pts : list name)
| PRelabel (rn : ren) | PRelabel1 (s q : name).

Definition pstep (r : rep) (o : pop) : rep :=
  match o with
  | PAdd fs id attr => fst (addSimplex r fs id attr)
  | PAddB bs id attr => fst (c_addSimplexWithBasis r bs id attr)
  | PEnsure bs attr => fst (c_ensureBasis r bs attr)
  | PAddFrom hp src rn => let '(_, r', _, _) := addSimplicesFrom hp r src rn in r'
  | PDelete s => fst (deleteSimplex r s)
  | PDeleteB bs => fst (deleteSimplexWithBasis r bs)
  | PDeletes ss => fst (deleteSimplices r ss)
  | PRestrict bs => fst (restrictBasisTo r bs)
  | PSubdivide s pts => fst (barycentricSubdivide r s pts)
  | PRelabel rn => let '(r', _, _) := relabel r rn in r'
  | PRelabel1 s q => fst (relabelSimplex r s q)
  end.

Section PublicHistory.
Variable I : rep -> Prop.
Hypothesis I_same_obs : forall r r', same_obs r r' -> I r -> I r'.
Hypothesis I_empty : forall uid, I (empty_rep uid).
Hypothesis addSimplex_I : forall r fs id attr r' x, I r -> addSimplex r fs id attr = (r', x) -> I r'.
Hypothesis relabelSimplex_I : forall r s q r' x, I r -> relabelSimplex r s q = (r', x) -> I r'.
Hypothesis deleteSimplex_I : forall r s r' x, I r -> deleteSimplex r s = (r', x) -> I r'.

Lemma pstep_I r o : I r -> I (pstep r o).
Proof.
  intros H. destruct o; simpl.
  - destruct (addSimplex r fs id attr) eqn:E. eauto.
  - destruct (c_addSimplexWithBasis r bs id attr) eqn:E. eapply addSimplexWithBasis_I; eauto.
  - destruct (c_ensureBasis r bs attr) eqn:E. eapply ensureBasis_I; eauto.
  - destruct (addSimplicesFrom hp r src rn) as [[[hp' r'] st] x] eqn:E. eapply addSimplicesFrom_I; eauto.
  - destruct (deleteSimplex r s) eqn:E. eauto.
  - destruct (deleteSimplexWithBasis r bs) eqn:E. eapply deleteSimplexWithBasis_I; eauto.
  - destruct (deleteSimplices r ss) eqn:E. eapply deleteSimplices_I; eauto.
  - destruct (restrictBasisTo r bs) eqn:E. eapply restrictBasisTo_I; eauto.
  - destruct (barycentricSubdivide r s pts) eqn:E. eapply barycentricSubdivide_I; eauto.
  - destruct (relabel r rn) as [[r' st] x] eqn:E. eapply relabel_I; eauto.
  - destruct (relabelSimplex r s q) eqn:E. eauto.
Qed.

Theorem public_history_I uid ops : I (fold_left pstep ops (empty_rep uid)).
Proof.
  apply fold_left_keeps; [intros r o _; apply pstep_I | apply I_empty].
Qed.
End PublicHistory.

Local Hint Resolve cinv_same_obs cinv_empty addSimplex_cinv relabelSimplex_cinv deleteSimplex_cinv : cinv.

Theorem copy_new_cinv hp src uid hp' r' x : copy_new hp src uid = (hp', r', x) -> cinv r'.
Proof. inst copy_new_I at cinv with cinv. Qed.
Theorem copy_into_cinv hp src target hp' r' x : cinv target -> copy_into hp src target = (hp', r', x) -> cinv r'.
Proof. inst copy_into_I at cinv with cinv. Qed.

Theorem public_history_cinv uid ops : cinv (fold_left pstep ops (empty_rep uid)).
Proof. inst public_history_I at cinv with cinv. Qed.

(* what the invariant says, in the words of C01: a simplex of order k >= 1 has exactly k+1 faces,
   all distinct, each a simplex of the complex of order k-1 (and a point has none) *)
Theorem faces_of_a_simplex r t k : cinv r -> orderOf r t = Ok k ->
  NoDup (faces r t) /\
  (forall u, In u (faces r t) -> containsSimplex r u = true /\ orderOf r u = Ok (k - 1)) /\
  length (faces r t) = (if k =? 0 then 0 else S k).
Proof.
  intros [HS F] Ho. apply orderOf_assoc in Ho. destruct Ho as [j At].
  split; [apply faces_nodup, (s_p r HS)|]. split.
  - intros u Hu. destruct k as [|k']; [unfold faces in Hu; rewrite At in Hu; destruct Hu|].
    destruct (face_is_simplex r HS t u k' j At Hu) as (iu & Au).
    split; [exact (assoc_contains _ _ _ _ Au) | apply orderOf_assoc; rewrite Nat.sub_1_r; eauto].
  - destruct k as [|k']; [unfold faces; now rewrite At|]. simpl. eapply F; eauto.
Qed.
