(* GenFrame.v -- C18, the frame clause for k_skeleton and ring on ANY target: whatever the outcome,
   every simplex the target had is still there with its order, position, faces, points and attribute dictionary.
   These generators are sequences of addSimplex calls; addSimplex has that frame (AddEffect, AttrFrame).  Plain Coq. *)
From Coq Require Import String ZArith Bool Arith List Lia.
From SV Require Import Rep Atomic AddEffect Closed Gen AttrInv AttrFrame.
Import ListNotations.

Definition full_frame (r0 r : rep) : Prop :=
  keeps_old r0 r /\
  forall t, containsSimplex r0 t = true ->
    orderOf r t = orderOf r0 t /\ indexOf r t = indexOf r0 t /\ faces r t = faces r0 t /\ basisOf r t = basisOf r0 t.

Lemma full_frame_refl r : ainv r -> full_frame r r.
Proof. intros A. split; [now apply keeps_old_refl|]. intros t _. repeat split. Qed.

Lemma full_frame_same_obs r0 r r' : same_obs r r' -> full_frame r0 r -> full_frame r0 r'.
Proof.
  intros Hs [K F]. split; [eapply keeps_old_same_obs; eauto|].
  destruct (same_obs_queries r r' Hs) as (Qo & Qi & Qf & _ & Qb & _). intros t Ct. rewrite Qo, Qi, Qf, Qb. now apply F.
Qed.

Lemma full_frame_add r0 r fs id attr : full_frame r0 r -> full_frame r0 (fst (addSimplex r fs id attr)).
Proof.
  intros [K F]. destruct (addSimplex r fs id attr) as [r' [n|e]] eqn:H; cbn [fst].
  2: { apply addSimplex_atomic in H. destruct H as [Hs _]. eapply full_frame_same_obs; eauto. split; auto. }
  split; [eapply addSimplex_keeps_old; eauto|].
  destruct K as [A K]. pose proof (ainv_sinv r A) as Sr.
  destruct (addSimplex_effect r fs id attr r' n Sr H) as (_ & _ & _ & _ & Hold & _).
  intros t Ct. destruct (K t Ct) as [C1 _]. destruct (Hold t C1) as (O & I & Fa & B). destruct (F t Ct) as (O0 & I0 & F0 & B0).
  rewrite O, I, Fa, B. auto.
Qed.

Section Generators.
  Variable I : rep -> Prop.
  Hypothesis addSimplex_I : forall r fs id attr, I r -> I (fst (addSimplex r fs id attr)).

  Lemma bindR_I {A B} (p : rep * res A) (f : rep -> A -> rep * res B) :
    I (fst p) -> (forall r v, I r -> I (fst (f r v))) -> I (fst (bindR p f)).
  Proof. destruct p as [r [v|e]]; simpl; auto. Qed.

  Lemma add_points_I : forall n r acc, I r -> I (fst (add_points n r acc)).
  Proof. induction n as [|n IH]; intros r acc Hi; simpl; [exact Hi|]. apply bindR_I; auto. Qed.

  Lemma add_edges_I : forall ps r, I r -> I (fst (add_edges r ps)).
  Proof. induction ps as [|p ps IH]; intros r Hi; simpl; [exact Hi|]. apply bindR_I; auto. Qed.

  Lemma k_skeleton_I k r : I r -> I (fst (k_skeleton k r)).
  Proof. intros Hi. apply bindR_I; [now apply add_points_I | intros; now apply add_edges_I]. Qed.

  Lemma ring_I n r : I r -> I (fst (ring n r)).
  Proof.
    intros Hi. unfold ring. destruct (n <=? 2); [exact Hi|].
    apply bindR_I; [now apply add_points_I|]. intros r1 ss I1.
    apply bindR_I; [now apply add_edges_I|]. intros r2 _ I2. apply bindR_I; auto.
  Qed.
End Generators.

Theorem k_skeleton_frame r0 k r' x : ainv r0 -> k_skeleton k r0 = (r', x) -> full_frame r0 r'.
Proof.
  intros A H. change r' with (fst (r', x)). rewrite <- H.
  apply (k_skeleton_I (full_frame r0) (full_frame_add r0)), full_frame_refl, A.
Qed.

Theorem ring_frame r0 n r' x : ainv r0 -> ring n r0 = (r', x) -> full_frame r0 r'.
Proof.
  intros A H. change r' with (fst (r', x)). rewrite <- H.
  apply (ring_I (full_frame r0) (full_frame_add r0)), full_frame_refl, A.
Qed.
