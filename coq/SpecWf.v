(* SpecWf.v -- the boolean well-formedness check wfb (Sweeps.v) holds of every complex that has the
   vertex-set reading and a populated top order: each of its conjuncts is one of the invariants the
   development keeps along every history, read through the boolean set operations.  Plain Coq. *)
From Coq Require Import String ZArith Bool Arith List Lia.
From SV Require Import Names NamesFacts ListFacts Rep Complex RepInv Shapes Incidence Closed ClosedReach CopyFaithful
                       BasisInv Duality VInv AwbSpec VSets FlagExt FlagSound FlagComplete Counts TopOrder Sweeps SpecSets.
Import ListNotations.
Open Scope nat_scope.

Section Wf.
  Variable r : rep.
  Hypothesis Hv : vinv r.
  Let Hc : cinv r := vinv_cinv r Hv.
  Let Hs : sinv r := c_s r Hc.
  Let P : pinv r := s_p r Hs.

  Lemma wf_basis s k j : assoc s (r_simp r) = Some (k, j) ->
    (length (basisOf r s) =? S k) && nodupb (basisOf r s) &&
    forallb (fun b => containsSimplex r b && (ord r b =? 0)) (basisOf r s) = true.
  Proof.
    intros A. rewrite !andb_true_iff. split; [split|].
    - apply Nat.eqb_eq. exact (v_card r Hv s k j A).
    - apply nodupb_NoDup, basis_nodup, P.
    - apply forallb_forall. intros b Hb. destruct (a_basis_point r Hv s k j b A Hb) as (i & Ab).
      unfold containsSimplex. now rewrite (ord_assoc r b 0 i Ab), Ab.
  Qed.

  Lemma wf_point s j : assoc s (r_simp r) = Some (0, j) ->
    (length (faces r s) =? 0) && seteq (basisOf r s) [s] = true.
  Proof.
    intros A. destruct (b_b r (v_b r Hv) s 0 j A) as [B0 _]. rewrite (B0 eq_refl).
    unfold faces. rewrite A. simpl. apply seteq_sameset. intros x. reflexivity.
  Qed.

  Lemma wf_faces s k j : assoc s (r_simp r) = Some (S k, j) ->
    (length (faces r s) =? S (S k)) && nodupb (faces r s) &&
    forallb (fun f => containsSimplex r f && (S (ord r f) =? S k)) (faces r s) = true.
  Proof.
    intros A. rewrite !andb_true_iff. split; [split|].
    - apply Nat.eqb_eq. exact (c_f r Hc s k j A).
    - apply nodupb_NoDup, faces_nodup, P.
    - apply forallb_forall. intros f Hf. destruct (face_is_simplex r Hs s f k j A Hf) as (i & Af).
      unfold containsSimplex. rewrite (ord_assoc r f k i Af), Af. simpl. apply Nat.eqb_refl.
  Qed.

  (* the faces of s span exactly the sets of all points of s but one: a face spans such a set
     (it is the part of the basis of s that lies in the face), each such set is spanned by a simplex
     one face step below s, and there are as many faces as points *)
  Lemma wf_face_sets s k j : assoc s (r_simp r) = Some (S k, j) ->
    fam_eq (map (basisOf r) (faces r s))
           (filter (fun V => length V =? S k) (nonempty_sublists (basisOf r s))) = true.
  Proof.
    intros A. rewrite nonempty_sublists_of_length. apply fam_eq_spec. split; [|split].
    - intros V HV. apply in_map_iff in HV. destruct HV as (u & <- & Hu).
      destruct (face_is_simplex r Hs s u k j A Hu) as (i & Au).
      set (W := filter (fun p => memn p (basisOf r u)) (basisOf r s)).
      assert (E : sameset (basisOf r u) W).
      { intros p. unfold W. rewrite filter_In, memn_In. split; [|tauto].
        intros Hp. split; [|exact Hp]. exact (face_basis_sub r Hv s k j u A Hu p Hp). }
      exists W. split; [|exact E].
      replace (S k) with (length W); [apply filter_in_combs|].
      rewrite <- (v_card r Hv u k i Au). symmetry.
      apply NoDup_same_length; [apply basis_nodup, P | apply NoDup_filter, basis_nodup, P | exact E].
    - intros W HW. destruct (combs_sub _ _ _ HW) as [Hi Hn]. pose proof (combs_length _ _ _ HW) as Hl.
      destruct (subsets_are_simplices r Hv 1 s (S k) j W A) as (u & _ & E & w & Hw & <-).
      + apply Hn, basis_nodup, P.
      + exact Hi.
      + lia.
      + intros ->. discriminate.
      + exists (basisOf r w). split; [now apply in_map|]. intros p. symmetry. apply E.
    - rewrite map_length, combs_count, (c_f r Hc s k j A), (v_card r Hv s (S k) j A). symmetry. apply binom_all_but_one.
  Qed.

  Lemma wf_simplex s : In s (simplices r false) ->
    let k := ord r s in
    (length (basisOf r s) =? S k) && nodupb (basisOf r s) &&
    forallb (fun b => containsSimplex r b && (ord r b =? 0)) (basisOf r s) &&
    (if k =? 0 then (length (faces r s) =? 0) && seteq (basisOf r s) [s]
     else (length (faces r s) =? S k) && nodupb (faces r s) &&
          forallb (fun f => containsSimplex r f && (S (ord r f) =? k)) (faces r s) &&
          fam_eq (map (basisOf r) (faces r s))
                 (filter (fun V => length V =? k) (nonempty_sublists (basisOf r s)))) = true.
  Proof.
    intros Hin. apply (In_simplices_iff r s P), containsSimplex_assoc in Hin. destruct Hin as (k & j & A).
    rewrite (ord_assoc r s k j A). cbv zeta. rewrite (wf_basis s k j A). destruct k as [|k].
    - exact (wf_point s j A).
    - change (S k =? 0) with false. cbv iota. now rewrite (wf_faces s k j A), (wf_face_sets s k j A).
  Qed.

  Lemma wf_distinct_bases : length (dedup_sets (fam r)) = length (simplices r false).
  Proof. rewrite (dedup_sets_id _ (distinct_fam r Hv)). apply map_length. Qed.

  Lemma wf_top : topinv r ->
    match r_nord r with
    | 0 => length (simplices r false) =? 0
    | S m => negb (length (simplicesOfOrder r m) =? 0)
    end = true.
  Proof.
    intros T. destruct (r_nord r) as [|m] eqn:En.
    - now rewrite (simplices_concat r P), En.
    - destruct (T m (eq_sym En)) as (s & j & A).
      assert (H : nth_error (simplicesOfOrder r m) j = Some s).
      { apply (orderOf_indexOf_position r s m j P). unfold orderOf, indexOf. now rewrite A. }
      destruct (simplicesOfOrder r m); [now destruct j | reflexivity].
  Qed.

  Lemma wf_listings :
    forallb (fun k => forallb (fun s => ord r s =? k) (simplicesOfOrder r k)) (seq 0 (r_nord r)) = true.
  Proof.
    apply forallb_forall. intros k _. apply forallb_forall. intros s Hin.
    apply In_nth_error in Hin. destruct Hin as (i & Hi).
    apply (orderOf_indexOf_position r s k i P) in Hi. destruct Hi as [Ho _].
    unfold ord. rewrite Ho. apply Nat.eqb_refl.
  Qed.

  Theorem wfb_of_invariants : topinv r -> wfb r = true.
  Proof.
    intros T. unfold wfb. cbv zeta. rewrite !andb_true_iff. repeat split.
    - apply nodupb_NoDup, simplices_nodup, P.
    - apply forallb_forall. exact wf_simplex.
    - apply Nat.eqb_eq, wf_distinct_bases.
    - exact (wf_top T).
    - apply Nat.eqb_eq. now rewrite <- (simplices_concat r P).
    - exact wf_listings.
  Qed.
End Wf.
