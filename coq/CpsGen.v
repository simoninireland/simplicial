(* CpsGen.v -- whatever is kept by addSimplex(faces) with no name and no attributes given is kept by
   _completePotentialSimplices, hence by growFlagComplex; instance: the complex stays the owner of
   all its attribute dictionaries, so flagComplex() -- a copy, then the sweep -- returns a complex that
   shares no dictionary with anything (C09; vietorisRipsComplex() is the flag complex of a private
   complex).  Plain Coq. *)
From Coq Require Import String ZArith Bool Arith List Lia.
From SV Require Import Names NamesFacts ListFacts Rep Fresh Complex Atomic RepInv Homology World WorldProofs FlagExt.
Import ListNotations.
Open Scope nat_scope.

Section AnyInvariantCps.
Variable I : rep -> Prop.
Hypothesis I_add : forall r fs r' x, I r -> addSimplex r fs None None = (r', x) -> I r'.

(* in the shape FlagExt.cps_loop_rel asks of one order (its `order_rel`): that lemma also carries a relation
   between start and end, and here there is nothing to relate, so R is True and `2 <= k` goes unused *)
Lemma cps_order_I r k newk1 nss maxk r' nss' maxk' x : I r -> 2 <= k ->
  cps_order r k newk1 nss maxk = (r', nss', maxk', x) -> I r' /\ True.
Proof.
  intros HI _ H. split; [|exact Logic.I].
  apply (cps_order_keeps I r k newk1 nss maxk r' nss' maxk' x HI); [|exact H].
  intros ra fs rb y Ha _ _ _. exact (I_add ra _ rb y Ha).
Qed.

Theorem completePotentialSimplices_I r nss r' x : I r -> completePotentialSimplices r nss = (r', x) -> I r'.
Proof.
  intros HI H.
  exact (proj1 (completePotentialSimplices_rel I (fun _ _ => True) (fun _ _ => Logic.I) (fun _ _ _ _ _ => Logic.I) cps_order_I r nss r' x HI H)).
Qed.

Theorem growFlagComplex_I r news r' x : I r -> growFlagComplex r news = (r', x) -> I r'.
Proof.
  intros HI H.
  exact (proj1 (growFlagComplex_rel I (fun _ _ => True) (fun _ _ => Logic.I) (fun _ _ _ _ _ => Logic.I) cps_order_I r news r' x HI H)).
Qed.
End AnyInvariantCps.

Lemma add_none_owned_by uid r fs r' x : owned_by uid r -> addSimplex r fs None None = (r', x) -> owned_by uid r'.
Proof.
  intros [O U] H. split.
  - eapply addSimplex_owned; [exact O| |exact H]. intros h Hh. discriminate.
  - rewrite (addSimplex_uid _ _ _ _ _ _ H). exact U.
Qed.

Theorem growFlagComplex_owned r news r' x : owned r -> growFlagComplex r news = (r', x) -> owned r' /\ r_uid r' = r_uid r.
Proof. intros O H. exact (growFlagComplex_I (owned_by (r_uid r)) (add_none_owned_by (r_uid r)) r news r' x (conj O eq_refl) H). Qed.

Theorem flagComplex_fresh hp src uid hp' r' x : flagComplex hp src uid = (hp', r', x) ->
  owned r' /\ r_uid r' = uid /\ forall h, fst h <> uid -> heap_get hp' h = heap_get hp h.
Proof.
  intros H. unfold flagComplex in H.
  destruct (copy_new hp (view_of src) uid) as [[hp1 c] y] eqn:E0.
  destruct (copy_new_fresh hp (view_of src) uid hp1 c y E0) as (O & U & Hh).
  destruct y as [[]|e].
  - destruct (completePotentialSimplices c (flag_seed c)) as [c' x'] eqn:E1. injection H as <- <- _.
    destruct (completePotentialSimplices_I (owned_by uid) (add_none_owned_by uid) c (flag_seed c) c' x' (conj O U) E1) as [O' U'].
    auto.
  - injection H as <- <- _. auto.
Qed.
