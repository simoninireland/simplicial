(* WorldProofs.v -- object identity: derived complexes get attribute dictionaries of their own
   (C09), queries do not change the world (C08); the notions in which the frame theorems of the
   constructors are stated (owned, agree_off, wle).  Plain Coq. *)
From Coq Require Import String ZArith Bool Arith List Lia.
From SV Require Import Names NamesFacts ListFacts Rep Fresh Complex Atomic RepInv Homology Filtration Gen World.
Import ListNotations.
Open Scope nat_scope.

(* every attribute dictionary of the complex was allocated by the complex itself *)
Definition owned (r : rep) : Prop := forall s h, In (s, h) (r_attr r) -> fst h = r_uid r.

Lemma owned_empty uid : owned (empty_rep uid).
Proof. intros s h []. Qed.

Lemma addSimplex_uid r fs id attr r' x : addSimplex r fs id attr = (r', x) -> r_uid r' = r_uid r.
Proof.
  intros H. destruct x as [n|e].
  - apply addSimplex_form in H. cbv zeta in H. destruct H as (r2 & h & _ & _ & _ & _ & _ & _ & _ & _ & _ & _ & Hu). exact Hu.
  - apply addSimplex_atomic in H. destruct H as [[Hu _] _]. exact Hu.
Qed.

Lemma addSimplex_owned r fs id attr r' x :
  owned r -> (forall h, attr = Some h -> fst h = r_uid r) -> addSimplex r fs id attr = (r', x) -> owned r'.
Proof.
  intros Ho Ha H. destruct x as [n|e].
  - apply addSimplex_form in H. cbv zeta in H.
    destruct H as (r2 & h & Hs & _ & _ & _ & _ & _ & _ & _ & Hattr & Hh & Hu).
    intros s h0 Hin. rewrite Hu. rewrite Hattr in Hin. apply in_app_or in Hin.
    destruct Hs as (_ & _ & _ & _ & _ & _ & Hs7). rewrite Hs7 in Hin. destruct Hin as [Hin|[Heq|[]]].
    + eapply Ho; eauto.
    + injection Heq as _ <-. destruct Hh as [Hh|[_ Hh]]; auto.
  - apply addSimplex_atomic in H. destruct H as [(Hu & _ & _ & _ & _ & _ & Hat) _].
    intros s h Hin. rewrite Hu. rewrite Hat in Hin. eapply Ho; eauto.
Qed.

Lemma alloc_owned r : owned r -> owned (fst (alloc r)) /\ fst (snd (alloc r)) = r_uid r /\ r_uid (fst (alloc r)) = r_uid r.
Proof. intros H. repeat split; auto. Qed.

Lemma handle_eqb_eq a b : handle_eqb a b = true <-> a = b.
Proof.
  unfold handle_eqb. destruct a as [a1 a2], b as [b1 b2]. simpl. rewrite andb_true_iff, !Nat.eqb_eq.
  split; [intros [-> ->]; reflexivity | intros E; injection E; auto].
Qed.

Lemma heap_get_set hp h d h' : heap_get (heap_set hp h d) h' = if handle_eqb h' h then d else heap_get hp h'.
Proof.
  induction hp as [|[h0 d0] t IH]; simpl; [reflexivity|].
  destruct (handle_eqb h h0) eqn:E; simpl.
  - apply handle_eqb_eq in E. subst h0. destruct (handle_eqb h' h); reflexivity.
  - rewrite IH. destruct (handle_eqb h' h0) eqn:E0, (handle_eqb h' h) eqn:E1; try reflexivity.
    apply handle_eqb_eq in E0, E1. subst h0 h'. rewrite (proj2 (handle_eqb_eq h h) eq_refl) in E. discriminate.
Qed.

Lemma heap_get_set_same hp h d : heap_get (heap_set hp h d) h = d.
Proof. rewrite heap_get_set. now rewrite (proj2 (handle_eqb_eq h h) eq_refl). Qed.

Lemma heap_get_set_other hp h d h' : h' <> h -> heap_get (heap_set hp h d) h' = heap_get hp h'.
Proof.
  intros Hne. rewrite heap_get_set. destruct (handle_eqb h' h) eqn:E; [|reflexivity].
  apply handle_eqb_eq in E. contradiction.
Qed.

(* the two halves of "a constructor's result is fresh": the complex owns its dictionaries under u,
   and the heap is as before except in cells of owner u *)
Definition owned_by (u : nat) (r : rep) : Prop := owned r /\ r_uid r = u.
Definition agree_off (u : nat) (hp hp' : heap) : Prop := forall h, fst h <> u -> heap_get hp' h = heap_get hp h.

Lemma agree_off_refl u hp : agree_off u hp hp.
Proof. intros h _. reflexivity. Qed.

Lemma agree_off_trans u hp1 hp2 hp3 : agree_off u hp1 hp2 -> agree_off u hp2 hp3 -> agree_off u hp1 hp3.
Proof. intros H1 H2 h Hne. rewrite (H2 h Hne). now apply H1. Qed.

Lemma agree_off_set u hp h d : fst h = u -> agree_off u hp (heap_set hp h d).
Proof. intros Hh h' Hne. apply heap_get_set_other. congruence. Qed.

(* one round of every bulk loop: a new cell, then a simplex that is given that cell *)
Lemma alloc_add_owned u r r1 h fs id r2 x : owned_by u r -> alloc r = (r1, h) ->
  addSimplex r1 fs id (Some h) = (r2, x) -> owned_by u r2 /\ fst h = u.
Proof.
  intros [O <-] [= <- <-] E. split; [split|reflexivity].
  - refine (addSimplex_owned _ _ _ _ _ _ _ _ E); [exact O|]. now intros h [= <-].
  - exact (addSimplex_uid _ _ _ _ _ _ E).
Qed.

Lemma addFrom_loop_owned rn : forall src hp r st ns hp' r' st' x, owned r ->
  addFrom_loop hp r rn st src ns = (hp', r', st', x) ->
  owned r' /\ r_uid r' = r_uid r /\ agree_off (r_uid r) hp hp'.
Proof.
  induction src as [|[s [fs h]] rest IH]; intros hp r st ns hp' r' st' x Ho H; cbn [addFrom_loop] in H.
  - injection H as <- <- _ _. auto using agree_off_refl.
  - destruct (rl_apply rn st s) as [st1 t].
    destruct (negb (name_eqb s t) && containsSimplex r t); [injection H as <- <- _ _; auto using agree_off_refl|].
    destruct (rl_map rn st1 fs) as [st2 fs'].
    destruct (alloc r) as [r1 h'] eqn:Ea.
    destruct (addSimplex r1 fs' (Some t) (Some h')) as [r2 y] eqn:E.
    destruct (alloc_add_owned _ _ _ _ _ _ _ _ (conj Ho eq_refl) Ea E) as [[Ho2 Hu2] Hh'].
    pose proof (agree_off_set _ hp h' (heap_get hp h) Hh') as F.
    destruct y as [id|e]; [|injection H as <- <- _ _; auto].
    destruct (IH _ _ _ _ _ _ _ _ Ho2 H) as (A & B & C). rewrite Hu2 in B, C.
    split; [exact A|]. split; [exact B|]. exact (agree_off_trans _ _ _ _ F C).
Qed.

(* C09: copy() -- a new complex whose dictionaries are all its own; the rest of the heap untouched *)
Theorem copy_new_fresh hp src uid hp' r' x : copy_new hp src uid = (hp', r', x) ->
  owned r' /\ r_uid r' = uid /\ agree_off uid hp hp'.
Proof.
  unfold copy_new. destruct (addSimplicesFrom hp (empty_rep uid) src RNone) as [[[hp1 r1] st] x1] eqn:E.
  intros H. injection H as <- <- _. unfold addSimplicesFrom in E.
  apply addFrom_loop_owned in E; [exact E | apply owned_empty].
Qed.

Theorem owned_disjoint r1 r2 s1 s2 h : owned r1 -> owned r2 -> r_uid r1 <> r_uid r2 ->
  In (s1, h) (r_attr r1) -> In (s2, h) (r_attr r2) -> False.
Proof. intros H1 H2 Hne I1 I2. apply H1 in I1. apply H2 in I2. congruence. Qed.

Lemma decode_owned : forall js hp r hp' r' x, owned r -> decode hp r js = (hp', r', x) ->
  owned r' /\ r_uid r' = r_uid r /\ agree_off (r_uid r) hp hp'.
Proof.
  induction js as [|j t IH]; intros hp r hp' r' x Ho H; cbn [decode] in H.
  - injection H as <- <- _. auto using agree_off_refl.
  - destruct (alloc r) as [r1 h] eqn:Ea.
    destruct (addSimplex r1 (j_faces j) (Some (j_id j)) (Some h)) as [r2 y] eqn:E.
    destruct (alloc_add_owned _ _ _ _ _ _ _ _ (conj Ho eq_refl) Ea E) as [[Ho2 Hu2] Hh].
    pose proof (agree_off_set _ hp h (j_attr j) Hh) as F.
    destruct y as [id|e]; [|injection H as <- <- _; auto].
    destruct (IH _ _ _ _ _ Ho2 H) as (A & B & C). rewrite Hu2 in B, C.
    split; [exact A|]. split; [exact B|]. exact (agree_off_trans _ _ _ _ F C).
Qed.

(* C08: queries leave the world as it is; constructors extend it (wle, below) *)
Theorem query_leaves_world w v q w' o : exec w (CQuery v q) = (w', o) -> w' = w.
Proof. simpl. destruct (vget (w_vars w) v); intros H; now injection H as <- _. Qed.

Lemma vget_vset_other vs x y o : y <> x -> vget (vset vs x o) y = vget vs y.
Proof.
  intros Hne. induction vs as [|[k o'] t IH]; simpl.
  - destruct (String.eqb_spec y x); congruence.
  - destruct (String.eqb_spec x k) as [->|Hxk]; simpl.
    + destruct (String.eqb_spec y k); congruence.
    + destruct (String.eqb_spec y k); auto.
Qed.

Lemma vget_vset_same vs x o : vget (vset vs x o) x = Some o.
Proof.
  induction vs as [|[k o'] t IH]; simpl.
  - now rewrite String.eqb_refl.
  - destruct (String.eqb_spec x k) as [->|Hxk]; simpl.
    + now rewrite String.eqb_refl.
    + destruct (String.eqb_spec x k); [contradiction|exact IH].
Qed.

(* how a later world extends an earlier one: the counter has not gone back, and the dictionaries
   that existed (owners are handed out from the counter, so: owner below it) hold what they held *)
Definition wle (w w' : world) : Prop :=
  w_uid w <= w_uid w' /\ forall h, fst h < w_uid w -> heap_get (w_heap w') h = heap_get (w_heap w) h.

Lemma wle_refl w : wle w w.
Proof. split; auto. Qed.

Lemma wle_trans w1 w2 w3 : wle w1 w2 -> wle w2 w3 -> wle w1 w3.
Proof. intros [U1 F1] [U2 F2]. split; [lia|]. intros h Hh. rewrite F2 by lia. now apply F1. Qed.

Lemma wle_fresh w w' u : w_uid w <= u -> u < w_uid w' -> agree_off u (w_heap w) (w_heap w') -> wle w w'.
Proof. intros H1 H2 F. split; [lia|]. intros h Hh. apply F. lia. Qed.
