(* ZAll.v -- Z(k) returns a basis of the cycle group of order k, for every complex satisfying the
   representation and shape invariants (every complex of every history): as many chains as the
   nullity of the boundary operator, each a cycle, linearly independent mod 2 (C07). *)
From Coq Require Import ZArith Lia.
From mathcomp Require Import ssreflect ssrfun ssrbool eqtype ssrnat seq choice fintype finfun bigop finset fingroup perm ssralg zmodp matrix mxalgebra.
From SV Require Import Names Rep Homology Rank Betti ZProofs ZCycles ZProofs2 ZIndep Shapes ShapesReach.
Set Implicit Arguments.
Unset Strict Implicit.
Unset Printing Implicit Defensive.

Theorem Z1_independent_all r k : sinv r ->
  \rank (mxf (length (simplicesOfOrder r k)) (length (Z1 r k))
             (fun t j => par (lab_in (simplicesOfOrder r k)) (List.nth j (Z1 r k) nil) t)) = length (Z1 r k).
Proof.
move=> H; apply: Z1_independent.
- by apply: simplicesOfOrder_nodup; exact: (s_p r H).
- exact: boundary_ncols.
Qed.

Theorem Z1_is_a_cycle_basis r k : sinv r ->
  length (Z1 r k) = (length (simplicesOfOrder r k) - rk (boundaryOperator r k))%coq_nat /\
  (forall ch, List.In ch (Z1 r k) ->
     forall i, (i < nrows (boundaryOperator r k))%coq_nat -> vsum name (colval r k) ch i = false) /\
  \rank (mxf (length (simplicesOfOrder r k)) (length (Z1 r k))
             (fun t j => par (lab_in (simplicesOfOrder r k)) (List.nth j (Z1 r k) nil) t)) = length (Z1 r k).
Proof.
move=> H; split; first exact: Z1_count.
split; last exact: Z1_independent_all.
by move=> ch Hin i Hi; apply: (@Z1_are_cycles r k ch H Hin i Hi).
Qed.
