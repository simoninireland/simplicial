(* VIso2.v -- the vertex-set reading of a union (C01 / C16): a complex whose simplices are those of two complexes
   a and c that agree where they overlap (a shared name has the same points, shared points have the same name),
   each with the order and faces it has in its source, meets the vertex-set reading, with the points the simplex has
   in its source.  Instance: the result of a successful a.compose(c).  Plain Coq. *)
From Coq Require Import Bool List.
From SV Require Import Names ListFacts Rep RepInv Shapes Incidence Closed BasisInv VInv AwbSpec VSets Homology ComposeProofs FlagComplete.
Import ListNotations.
Open Scope nat_scope.

Section Sub2.
  Variables ra rc r' : rep.
  Hypothesis Hva : vinv ra.
  Hypothesis Hvc : vinv rc.
  Hypothesis Hb' : bcinv r'.
  Hypothesis HsubA : forall s, containsSimplex r' s = true -> containsSimplex ra s = true ->
    orderOf r' s = orderOf ra s /\ forall t, In t (faces r' s) <-> In t (faces ra s).
  Hypothesis HsubC : forall s, containsSimplex r' s = true -> containsSimplex ra s = false ->
    containsSimplex rc s = true /\ orderOf r' s = orderOf rc s /\ forall t, In t (faces r' s) <-> In t (faces rc s).
  Hypothesis K1 : forall s, containsSimplex rc s = true -> containsSimplex ra s = true -> sameset (basisOf ra s) (basisOf rc s).
  Hypothesis K2 : forall s t, containsSimplex rc s = true -> containsSimplex ra t = true ->
    sameset (basisOf ra t) (basisOf rc s) -> t = s.

  Let HS' : sinv r' := c_s r' (b_c r' Hb').
  Definition src (s : name) : rep := if containsSimplex ra s then ra else rc.

  Lemma src_vinv s : vinv (src s).
  Proof. unfold src. destruct (containsSimplex ra s); assumption. Qed.

  Lemma src_facts s : containsSimplex r' s = true ->
    containsSimplex (src s) s = true /\ orderOf r' s = orderOf (src s) s /\ forall t, In t (faces r' s) <-> In t (faces (src s) s).
  Proof.
    intros C. unfold src. destruct (containsSimplex ra s) eqn:Ca.
    - destruct (HsubA s C Ca) as [O F]. auto.
    - exact (HsubC s C Ca).
  Qed.

  Lemma src_assoc s k j : assoc s (r_simp r') = Some (k, j) -> exists i, assoc s (r_simp (src s)) = Some (k, i).
  Proof.
    intros As. assert (C : containsSimplex r' s = true) by exact (assoc_contains _ _ _ _ As).
    destruct (src_facts s C) as (_ & Ho & _). apply orderOf_assoc. rewrite <- Ho. apply orderOf_assoc. eauto.
  Qed.

  Lemma face_same_points s u k i : assoc s (r_simp (src s)) = Some (S k, i) -> In u (faces (src s) s) ->
    sameset (basisOf (src u) u) (basisOf (src s) u).
  Proof.
    intros As Hu. unfold src in *. destruct (containsSimplex ra s) eqn:Cs.
    - (* s read in ra: its faces are simplices of ra *)
      destruct (face_is_simplex ra (vinv_sinv ra Hva) s u k i As Hu) as (iu & Au).
      assert (Cu : containsSimplex ra u = true) by exact (assoc_contains _ _ _ _ Au). rewrite Cu. intros z; reflexivity.
    - destruct (face_is_simplex rc (vinv_sinv rc Hvc) s u k i As Hu) as (iu & Au).
      assert (Cu : containsSimplex rc u = true) by exact (assoc_contains _ _ _ _ Au).
      destruct (containsSimplex ra u) eqn:Cua; [now apply K1|intros z; reflexivity].
  Qed.

  Lemma sub_basis2 : forall k s j, assoc s (r_simp r') = Some (k, j) -> sameset (basisOf r' s) (basisOf (src s) s).
  Proof.
    induction k as [|k IH]; intros s j As; destruct (src_assoc s _ j As) as (i & Ar).
    - destruct (b_b r' Hb' s 0 j As) as [E' _]. destruct (b_b (src s) (v_b _ (src_vinv s)) s 0 i Ar) as [E _].
      rewrite E', E by reflexivity. intros z; reflexivity.
    - assert (C : containsSimplex r' s = true) by exact (assoc_contains _ _ _ _ As).
      destruct (src_facts s C) as (_ & _ & Hf).
      apply (same_faces_same_points (src s) r' s s k i k j (v_b _ (src_vinv s)) Hb' Ar As Hf).
      intros u Hu z. destruct (face_is_simplex r' HS' s u k j As (proj2 (Hf u) Hu)) as (iu & Au).
      rewrite (IH u iu Au z). apply (face_same_points s u k i Ar Hu).
  Qed.

  Theorem vinv_union : vinv r' /\ forall s, containsSimplex r' s = true -> sameset (basisOf r' s) (basisOf (src s) s).
  Proof.
    assert (G : forall s, containsSimplex r' s = true -> sameset (basisOf r' s) (basisOf (src s) s)).
    { intros s C. apply (containsSimplex_assoc r') in C. destruct C as (k & j & As). exact (sub_basis2 k s j As). }
    split; [|exact G]. constructor; [exact Hb'| |].
    - intros t k j At. destruct (src_assoc t k j At) as (i & Ar).
      rewrite <- (v_card (src t) (src_vinv t) t k i Ar).
      apply NoDup_same_length; [apply basis_nodup, bcinv_pinv, Hb' | apply basis_nodup, vinv_pinv, src_vinv | exact (sub_basis2 k t j At)].
    - intros t u Ct Cu Hss.
      assert (Hst : sameset (basisOf (src t) t) (basisOf (src u) u)).
      { intros z. rewrite <- (G t Ct z), <- (G u Cu z). apply Hss. }
      destruct (src_facts t Ct) as (St & _). destruct (src_facts u Cu) as (Su & _).
      unfold src in *. destruct (containsSimplex ra t) eqn:Cta, (containsSimplex ra u) eqn:Cua.
      + now apply (v_uniq ra Hva).
      + apply (K2 u t Su Cta Hst).
      + symmetry. apply (K2 t u St Cua). intros z. symmetry. apply Hst.
      + now apply (v_uniq rc Hvc).
  Qed.
End Sub2.

(* operands that compose are compatible: the lookups the loop makes find, for a shared name, that name
   on the same points, and, for a simplex of c alone, no simplex of a on its points *)
Lemma compose_compatible hp a c uid hp' d : vinv a -> vinv c -> compose hp a c None uid = (hp', d, Ok tt) ->
  (forall s, containsSimplex c s = true -> containsSimplex a s = true -> sameset (basisOf a s) (basisOf c s)) /\
  (forall s t, containsSimplex c s = true -> containsSimplex a t = true -> sameset (basisOf a t) (basisOf c s) -> t = s).
Proof.
  intros Va Vc H. pose proof (vinv_pinv c Vc) as Pc.
  pose proof (compose_accepts_only_compatible hp a c uid hp' d Pc H) as Hlook.
  assert (K1 : forall s, containsSimplex c s = true -> containsSimplex a s = true -> sameset (basisOf a s) (basisOf c s)).
  { intros s Csc Csa. pose proof (Hlook s Csc) as L. rewrite Csa in L. apply (lookup_some a (basisOf c s) s Va L). }
  split; [exact K1|].
  intros s t Csc Cta Hst. destruct (containsSimplex a s) eqn:Csa.
  - apply (v_uniq a Va t s Cta Csa). intros z. rewrite (Hst z). symmetry. apply (K1 s Csc Csa).
  - exfalso. pose proof (Hlook s Csc) as L. rewrite Csa in L.
    apply (containsSimplex_assoc c) in Csc. destruct Csc as (k & j & Ac).
    apply (containsSimplex_assoc a) in Cta. destruct Cta as (kt & jt & At).
    assert (Hp : pts a (basisOf c s)).
    { intros b Hb. apply (a_basis_point a Va t kt jt b At). now apply Hst. }
    assert (Hne : basisOf c s <> []) by (intros E; pose proof (v_card c Vc s k j Ac) as X; rewrite E in X; discriminate).
    destruct (lookup_none a (basisOf c s) Va Hp (basis_nodup c s Pc) Hne L) as [_ Hno].
    apply (Hno t); [exact (assoc_contains _ _ _ _ At) | exact Hst].
Qed.

Theorem compose_vinv hp a c uid hp' d : vinv a -> vinv c -> compose hp a c None uid = (hp', d, Ok tt) ->
  vinv d /\ forall s, containsSimplex d s = true -> sameset (basisOf d s) (basisOf (if containsSimplex a s then a else c) s).
Proof.
  intros Va Vc H.
  pose proof (vinv_cinv a Va) as Ca. pose proof (vinv_cinv c Vc) as Cc.
  pose proof (vinv_pinv a Va) as Pa. pose proof (vinv_pinv c Vc) as Pc.
  destruct (compose_is_union hp a c uid hp' d Pa Pc H) as (_ & Hmem & HfA & HfC).
  destruct (compose_compatible hp a c uid hp' d Va Vc H) as [K1 K2].
  pose proof (cs_inv _ _ _ _ (compose_cstate hp a c uid hp' d Pa Pc H)) as Bd.
  apply (vinv_union a c d Va Vc Bd); [| |exact K1|exact K2].
  - intros s Cs Csa. split; [|now apply HfA]. apply (same_faces_order a d s Ca (b_c d Bd) Csa Cs). now apply HfA.
  - intros s Cs Csa. assert (Csc : containsSimplex c s = true) by (rewrite Hmem, Csa in Cs; exact Cs).
    split; [exact Csc|]. split; [|now apply HfC]. apply (same_faces_order c d s Cc (b_c d Bd) Csc Cs). now apply HfC.
Qed.

Theorem compose_family hp a c uid hp' d : vinv a -> vinv c -> compose hp a c None uid = (hp', d, Ok tt) ->
  forall B, carried d B <-> carried a B \/ carried c B.
Proof.
  intros Va Vc H B.
  pose proof (vinv_pinv a Va) as Pa. pose proof (vinv_pinv c Vc) as Pc.
  destruct (compose_vinv hp a c uid hp' d Va Vc H) as (_ & Hb).
  destruct (compose_is_union hp a c uid hp' d Pa Pc H) as (_ & Hmem & _ & _).
  destruct (compose_compatible hp a c uid hp' d Va Vc H) as [K1 _].
  unfold carried. split.
  - intros (t & Ct & Ht). pose proof (Hb t Ct) as Hs. rewrite Hmem in Ct. destruct (containsSimplex a t) eqn:Cta.
    + left. exists t. split; [exact Cta|]. intros z. rewrite <- (Hs z). apply Ht.
    + right. exists t. split; [exact Ct|]. intros z. rewrite <- (Hs z). apply Ht.
  - intros [(t & Ct & Ht)|(t & Ct & Ht)]; exists t.
    + assert (Cd : containsSimplex d t = true) by (rewrite Hmem, Ct; reflexivity).
      split; [exact Cd|]. pose proof (Hb t Cd) as Hs. rewrite Ct in Hs. intros z. rewrite (Hs z). apply Ht.
    + assert (Cd : containsSimplex d t = true) by (rewrite Hmem, Ct; apply orb_true_r).
      split; [exact Cd|]. pose proof (Hb t Cd) as Hs. intros z. rewrite (Hs z), <- (Ht z).
      destruct (containsSimplex a t) eqn:Cta; [apply (K1 t Ct Cta) | reflexivity].
Qed.
