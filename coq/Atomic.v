(* Atomic.v -- a rejected request leaves every observable field of the representation as it
   was (only the auto-name counter and the dict allocator may have advanced), and raises KeyError
   or ValueError.  For addSimplex this is one half of addSimplex_inv, which goes through the
   checks of addSimplex once and also says what an accepted call amounts to.  Plain Coq. *)
From Coq Require Import String ZArith Bool Arith List Lia.
From SV Require Import Names NamesFacts ListFacts Rep Fresh Complex.
Import ListNotations.
Open Scope nat_scope.

(* equality of everything a query can observe: all fields but _sequence and the allocator *)
Definition same_obs (r r' : rep) : Prop :=
  r_uid r' = r_uid r /\ r_nord r' = r_nord r /\ r_simp r' = r_simp r /\ r_idx r' = r_idx r /\
  r_bnd r' = r_bnd r /\ r_bas r' = r_bas r /\ r_attr r' = r_attr r.

Lemma same_obs_refl r : same_obs r r.
Proof. repeat split. Qed.
Lemma same_obs_trans a b c : same_obs a b -> same_obs b c -> same_obs a c.
Proof. unfold same_obs. intuition congruence. Qed.
Lemma same_obs_set_seq r s : same_obs r (set_seq r s).
Proof. repeat split. Qed.
Lemma same_obs_alloc r : same_obs r (fst (alloc r)).
Proof. repeat split. Qed.

(* r' is r with other counters: what is stated of the seven fields of r holds of r' by computation *)
Lemma same_obs_eq r r' : same_obs r r' ->
  r' = mkRep (r_uid r) (r_nord r) (r_simp r) (r_idx r) (r_bnd r) (r_bas r) (r_attr r) (r_seq r') (r_nalloc r').
Proof. destruct r'. unfold same_obs. simpl. intros (-> & -> & -> & -> & -> & -> & ->). reflexivity. Qed.

Lemma same_obs_queries r r' : same_obs r r' ->
  (forall s, orderOf r' s = orderOf r s) /\ (forall s, indexOf r' s = indexOf r s) /\
  (forall s, faces r' s = faces r s) /\ (forall s, cofaces r' s = cofaces r s) /\
  (forall s, basisOf r' s = basisOf r s) /\ (forall s, containsSimplex r' s = containsSimplex r s) /\
  (forall k, simplicesOfOrder r' k = simplicesOfOrder r k) /\ (forall b, simplices r' b = simplices r b) /\
  (forall k, boundaryOperator r' k = boundaryOperator r k) /\ maxOrder r' = maxOrder r /\
  (forall s, getAttributes r' s = getAttributes r s).
Proof.
  intros Hs. rewrite (same_obs_eq r r' Hs). repeat split.
Qed.

Lemma same_obs_contains r r' s : same_obs r r' -> containsSimplex r' s = containsSimplex r s.
Proof. intros H. now apply same_obs_queries. Qed.

Lemma check_faces_respects r1 r2 k fs : r_simp r2 = r_simp r1 -> check_faces r2 k fs = check_faces r1 k fs.
Proof.
  intros H. induction fs as [|f t IH]; cbn [check_faces]; [reflexivity|]. rewrite H.
  destruct (assoc f (r_simp r1)) as [[fo fi]|]; [|reflexivity]. destruct (S fo =? k); [exact IH | reflexivity].
Qed.

Lemma simplexWithFaces_respects r1 r2 fs : same_obs r1 r2 -> simplexWithFaces r2 fs = simplexWithFaces r1 fs.
Proof.
  intros Hs. destruct (same_obs_queries r1 r2 Hs) as (Qo & _ & Qf & _ & _ & _ & Qs & _).
  unfold simplexWithFaces.
  assert (Eo : all_orders r2 fs = all_orders r1 fs).
  { induction fs as [|f t IH]; simpl; [reflexivity|]. rewrite Qo, IH. reflexivity. }
  rewrite Eo, Qs. destruct (length fs <=? 1); [reflexivity|]. destruct (all_orders r1 fs) as [os|e]; [|reflexivity].
  destruct (forallb _ os); [|reflexivity]. f_equal. f_equal. f_equal. apply filter_ext. intros a. now rewrite Qf.
Qed.

Lemma isBasis_same_obs r r' bs f : same_obs r r' -> c_isBasis r' bs f = c_isBasis r bs f.
Proof.
  intros Hs. destruct (same_obs_queries r r' Hs) as (Qo & _ & _ & _ & _ & Qc & _).
  unfold c_isBasis. induction bs as [|b t IH]; simpl; [reflexivity|]. rewrite Qc, Qo, IH. reflexivity.
Qed.

Lemma lookup_same_obs r r' bs f : same_obs r r' -> c_simplexWithBasis r' bs f = c_simplexWithBasis r bs f.
Proof.
  intros Hs. pose proof (isBasis_same_obs r r' bs f Hs) as Hi.
  destruct (same_obs_queries r r' Hs) as (_ & _ & _ & _ & Qb & _ & Qs & _).
  unfold c_simplexWithBasis, simplexWithBasis. fold (c_isBasis r' bs f). fold (c_isBasis r bs f). rewrite Hi.
  destruct Hs as (_ & Hn & _). rewrite Hn.
  destruct (c_isBasis r bs f) as [[|]|e]; try reflexivity. destruct bs as [|b [|b2 t]]; try reflexivity.
  cbv zeta. rewrite Qs. destruct (r_nord r <=? _); [reflexivity|].
  rewrite (find_ext' _ (fun s => seteq (b :: b2 :: t) (basisOf r s))); [reflexivity|]. intros x. now rewrite Qb.
Qed.

Definition kv (e : exn) : Prop := e = KeyError \/ e = ValueError.

Lemma check_faces_kv r k fs e : check_faces r k fs = Raise e -> kv e.
Proof.
  induction fs as [|f t IH]; cbn [check_faces]; [discriminate|].
  destruct (assoc f (r_simp r)) as [[fo fi]|].
  - destruct (S fo =? k); auto. intros H. inversion H. right. reflexivity.
  - intros H. inversion H. left. reflexivity.
Qed.

Lemma check_faces_ok_orders r k fs : check_faces r k fs = Ok tt ->
  forall f, In f fs -> exists fo fi, assoc f (r_simp r) = Some (fo, fi) /\ S fo = k.
Proof.
  induction fs as [|f t IH]; cbn [check_faces In]; intros H g Hg; [tauto|].
  destruct (assoc f (r_simp r)) as [[fo fi]|] eqn:A; [|discriminate].
  destruct (S fo =? k) eqn:E; [|discriminate]. apply Nat.eqb_eq in E.
  destruct Hg as [<-|Hg]; [exists fo, fi; auto | auto].
Qed.

Lemma all_orders_ok r fs :
  (forall f, In f fs -> exists fo fi, assoc f (r_simp r) = Some (fo, fi)) -> exists os, all_orders r fs = Ok os.
Proof.
  induction fs as [|f t IH]; intros H; simpl; [eauto|].
  destruct (H f (or_introl eq_refl)) as (fo & fi & A). unfold orderOf. rewrite A.
  destruct IH as [os ->]; [intros g Hg; apply H; now right|]. eauto.
Qed.

Lemma simplexWithFaces_kv r fs k e :
  2 <= length fs -> check_faces r k fs = Ok tt -> simplexWithFaces r fs = Raise e -> kv e.
Proof.
  intros Hl Hc. unfold simplexWithFaces.
  destruct (length fs <=? 1) eqn:E; [apply Nat.leb_le in E; lia|].
  destruct (all_orders_ok r fs) as [os Hos].
  { intros f Hf. destruct (check_faces_ok_orders _ _ _ Hc f Hf) as (fo & fi & A & _). eauto. }
  rewrite Hos. destruct (forallb _ os); [discriminate|]. intros H; inversion H; subst. now right.
Qed.

Lemma add_name_stage r k id r1 x :
  match id with
  | None => newSimplex r k
  | Some n => if containsSimplex r n then (r, Raise KeyError) else (r, Ok n)
  end = (r1, x) ->
  same_obs r r1 /\ r_seq r <= r_seq r1 /\ r_nalloc r1 = r_nalloc r /\ (id <> None -> r1 = r) /\
  match x with
  | Raise e => r1 = r /\ e = KeyError
  | Ok m => containsSimplex r1 m = false /\ (id = Some m \/ id = None)
  end.
Proof.
  destruct id as [n|].
  - destruct (containsSimplex r n) eqn:C; intros H; injection H as <- <-;
      (split; [apply same_obs_refl | auto 6]).
  - destruct (newSimplex_fresh r k) as (i & m & -> & _ & Hi & Hc). intros H; injection H as <- <-.
    split; [apply same_obs_set_seq|]. simpl. split; [lia|]. split; [reflexivity|]. split; [congruence | auto].
Qed.

Lemma add_attr_stage r1 attr r2 h :
  match attr with Some h => (r1, h) | None => alloc r1 end = (r2, h) ->
  same_obs r1 r2 /\ r_seq r2 = r_seq r1 /\ r_nalloc r1 <= r_nalloc r2 /\ (attr <> None -> r2 = r1) /\
  (attr = Some h \/ attr = None /\ fst h = r_uid r1).
Proof.
  destruct attr as [h0|]; intros H; injection H as <- <-.
  - split; [apply same_obs_refl | auto 6].
  - split; [apply same_obs_alloc|]. simpl. split; [reflexivity|]. split; [lia|]. split; [congruence | auto].
Qed.

(* Every call works on some r2 that differs from r at most in the two counters.  Either it is
   rejected there, with KeyError or ValueError, and nothing else has happened; or it is accepted
   under a name n and with a dictionary h, and then it did what the same request does when it
   spells out n and h; the checks it passed are listed.
   Of an accepted call this is the source of two more readable statements: from Shapes.v on use
   Shapes.addSimplex_ok, which has every clause below and writes r' out as add_final (add_struct r2 k);
   RepInv.addSimplex_form gives only the dictionary, listings and attributes of r', for the files that
   come before Shapes.v. *)
Lemma addSimplex_inv r fs id attr r' x : addSimplex r fs id attr = (r', x) ->
  let k := length fs - 1 in
  exists r2, same_obs r r2 /\ r_seq r <= r_seq r2 /\ r_nalloc r <= r_nalloc r2 /\
             (id <> None -> attr <> None -> r2 = r) /\
  match x with
  | Raise e => r' = r2 /\ kv e
  | Ok n => exists h,
      addSimplex r2 fs (Some n) (Some h) = (r', Ok n) /\
      (id = Some n \/ id = None) /\ (attr = Some h \/ attr = None /\ fst h = r_uid r) /\
      containsSimplex r2 n = false /\ NoDup fs /\ check_faces r2 k fs = Ok tt /\
      (k = 0 -> fs = []) /\ k <= r_nord r2 /\
      (0 < k < r_nord r2 -> simplexWithFaces r2 fs = Ok None)
  end.
Proof.
  intros H. cbv zeta. unfold addSimplex in H. remember (length fs - 1) as k eqn:Ek.
  destruct ((k =? 0) && negb (length fs =? 0)) eqn:E0.
  { injection H as <- <-. exists r. split; [apply same_obs_refl|]. repeat split; auto. now right. }
  destruct (match id with None => _ | Some _ => _ end) as [r1 [m|e]] eqn:En;
    apply add_name_stage in En; destruct En as (Hs1 & Hq1 & Ha1 & Hr1 & Hx).
  2: { destruct Hx as [-> ->]. injection H as <- <-. exists r. split; [apply same_obs_refl|]. repeat split; auto. now left. }
  destruct Hx as [Hc1 Hid].
  destruct (match attr with Some _ => _ | None => _ end) as [r2 h] eqn:Ea.
  apply add_attr_stage in Ea. destruct Ea as (Hs2 & Hq2 & Ha2 & Hr2 & Hh).
  exists r2. split; [eapply same_obs_trans; eauto|]. split; [lia|]. split; [lia|].
  split; [intros Hi Hat; rewrite Hr2, Hr1; auto|].
  assert (Hc2 : containsSimplex r2 m = false) by (now rewrite (same_obs_contains r1 r2)).
  destruct (nodupb fs) eqn:End; cbn [negb] in H.
  2: { injection H as <- <-. split; [reflexivity | now left]. }
  destruct (check_faces r2 k fs) as [[]|e] eqn:Ec.
  2: { injection H as <- <-. split; [reflexivity | eapply check_faces_kv; eauto]. }
  destruct (if r_nord r2 <=? k then _ else _) as [rg [[]|e]] eqn:EG.
  - (* accepted: from here on nothing raises, and the name returned is m *)
    assert (HG : k <= r_nord r2 /\ (0 < k < r_nord r2 -> simplexWithFaces r2 fs = Ok None)).
    { destruct (r_nord r2 <=? k) eqn:E1.
      - destruct (r_nord r2 <? k) eqn:E2; [discriminate|].
        apply Nat.leb_le in E1. apply Nat.ltb_ge in E2. split; lia.
      - apply Nat.leb_gt in E1. split; [lia|]. intros [Hk _]. apply Nat.ltb_lt in Hk. rewrite Hk in EG.
        destruct (simplexWithFaces r2 fs) as [[sw|]|e]; [discriminate | reflexivity | discriminate]. }
    assert (Hx : x = Ok m) by (destruct k; now injection H). subst x.
    exists h. split.
    { unfold addSimplex. rewrite <- Ek, E0, Hc2. cbv beta iota zeta. rewrite End. cbn [negb]. rewrite Ec, EG. exact H. }
    split; [exact Hid|]. split; [destruct Hs1 as [Hu _]; rewrite <- Hu; exact Hh|].
    split; [exact Hc2|]. split; [now apply nodupb_NoDup|]. split; [reflexivity|]. split; [|exact HG].
    intros ->. destruct fs; [reflexivity | discriminate].
  - (* rejected for its order, or as a duplicate *)
    injection H as <- <-.
    destruct (r_nord r2 <=? k).
    + destruct (r_nord r2 <? k); [|discriminate]. injection EG as <- <-. split; [reflexivity | now right].
    + destruct (0 <? k) eqn:E3; [|discriminate]. apply Nat.ltb_lt in E3.
      destruct (simplexWithFaces r2 fs) as [[sw|]|e2] eqn:Es; [|discriminate|]; injection EG as <- <-.
      * split; [reflexivity | now left].
      * split; [reflexivity|]. eapply simplexWithFaces_kv; eauto. lia.
Qed.

Theorem addSimplex_atomic r fs id attr r' e :
  addSimplex r fs id attr = (r', Raise e) -> same_obs r r' /\ kv e.
Proof. intros H. apply addSimplex_inv in H. destruct H as (r2 & Hs & _ & _ & _ & -> & He). auto. Qed.

Theorem relabelSimplex_atomic r s q r' e :
  relabelSimplex r s q = (r', Raise e) -> r' = r /\ kv e.
Proof.
  unfold relabelSimplex. destruct (containsSimplex r q).
  - intros H; injection H as <- <-. split; auto. now right.
  - destruct (assoc s (r_simp r)) as [[k i]|].
    + intros H; inversion H.
    + intros H; injection H as <- <-. split; auto. now left.
Qed.

Theorem forceDeleteSimplex_atomic r s r' e :
  forceDeleteSimplex r s = (r', Raise e) -> r' = r /\ e = KeyError.
Proof.
  unfold forceDeleteSimplex. destruct (assoc s (r_simp r)) as [[k i]|].
  - destruct ((S k =? r_nord r) && _); intros H; inversion H.
  - intros H; injection H as <- <-. auto.
Qed.

Lemma addSimplex_lift (I : rep -> Prop) : (forall r r', same_obs r r' -> I r -> I r') ->
  (forall r fs id attr r' n, I r -> addSimplex r fs id attr = (r', Ok n) -> I r') ->
  forall r fs id attr r' x, I r -> addSimplex r fs id attr = (r', x) -> I r'.
Proof.
  intros Hobs Hok r fs id attr r' [n|e] Hr H; [now apply (Hok r fs id attr r' n)|].
  apply addSimplex_atomic in H. now apply (Hobs r r'); [apply H|].
Qed.

Lemma relabelSimplex_lift (I : rep -> Prop) :
  (forall r s q r', I r -> relabelSimplex r s q = (r', Ok tt) -> I r') ->
  forall r s q r' x, I r -> relabelSimplex r s q = (r', x) -> I r'.
Proof.
  intros Hok r s q r' [[]|e] Hr H; [now apply (Hok r s q r')|].
  apply relabelSimplex_atomic in H. now destruct H as [-> _].
Qed.

Lemma forceDeleteSimplex_lift (I : rep -> Prop) :
  (forall r s r', I r -> forceDeleteSimplex r s = (r', Ok tt) -> I r') ->
  forall r s r' x, I r -> forceDeleteSimplex r s = (r', x) -> I r'.
Proof.
  intros Hok r s r' [[]|e] Hr H; [now apply (Hok r s r')|].
  apply forceDeleteSimplex_atomic in H. now destruct H as [-> _].
Qed.

Theorem deleteSimplex_unknown r s : containsSimplex r s = false -> deleteSimplex r s = (r, Raise KeyError).
Proof.
  unfold containsSimplex, deleteSimplex, partOf, orderOf. destruct (assoc s (r_simp r)); [discriminate|]. reflexivity.
Qed.

Lemma isBasis_fatal_kv r bs e : c_isBasis r bs true = Raise e -> kv e.
Proof.
  unfold c_isBasis. induction bs as [|b t IH]; simpl; [discriminate|].
  destruct (containsSimplex r b) eqn:C.
  - unfold orderOf. unfold containsSimplex in C. destruct (assoc b (r_simp r)) as [[k i]|]; [|discriminate].
    destruct k; auto. intros H; inversion H; subst. now right.
  - intros H; inversion H; subst. now left.
Qed.

Theorem restrictBasisTo_not_a_basis r bs e : c_isBasis r bs true = Raise e ->
  restrictBasisTo r bs = (r, Raise e) /\ kv e.
Proof. intros H. unfold restrictBasisTo. rewrite H. split; auto. eapply isBasis_fatal_kv; eauto. Qed.

Theorem barycentricSubdivide_unknown r s pts : containsSimplex r s = false ->
  barycentricSubdivide r s pts = (r, Raise KeyError).
Proof. intros H. unfold barycentricSubdivide. now rewrite H. Qed.

Theorem barycentricSubdivide_point r s i pts : assoc s (r_simp r) = Some (0, i) ->
  barycentricSubdivide r s pts = (r, Raise ValueError).
Proof.
  intros H. unfold barycentricSubdivide, containsSimplex, orderOf. now rewrite H.
Qed.

Theorem ensureBasis_non_point r bs attr e : ensure_check rep containsSimplex orderOf r bs = Raise e ->
  c_ensureBasis r bs attr = (r, Raise e).
Proof. intros H. unfold c_ensureBasis, ensureBasis. now rewrite H. Qed.

Theorem addSimplexWithBasis_duplicate_name r bs n attr :
  bs <> [] -> containsSimplex r n = true -> c_addSimplexWithBasis r bs (Some n) attr = (r, Raise KeyError).
Proof.
  intros Hb Hn. unfold c_addSimplexWithBasis, addSimplexWithBasis.
  destruct bs; [congruence|]. now rewrite Hn.
Qed.

Theorem copy_into_overlap hp src target :
  length (intern (map fst src) (simplices target false)) <> 0 ->
  copy_into hp src target = (hp, target, Raise ValueError).
Proof.
  intros H. unfold copy_into. destruct (length _ =? 0) eqn:E; [apply Nat.eqb_eq in E; congruence|]. reflexivity.
Qed.

Theorem relabel_rejected_by_check r rn st e :
  relabel_check rn rl0 (simplices r false) (simplices r false) = (st, Raise e) ->
  relabel r rn = (r, st, Raise e).
Proof. intros H. unfold relabel. now rewrite H. Qed.

Lemma relabel_check_kv rn : forall ss st names st' e,
  relabel_check rn st ss names = (st', Raise e) -> e = ValueError.
Proof.
  induction ss as [|s t IH]; intros st names st' e; simpl; [discriminate|].
  destruct (rl_apply rn st s) as [st1 s'].
  destruct (name_eqb s s'); [apply IH|].
  destruct (memn s' names); [intros H; now injection H as _ <- | apply IH].
Qed.
