(* CopyAttrs.v -- copy() gives every simplex an attribute dictionary of its own (owned by the new
   complex, allocated after all earlier ones) holding what the source's dictionary held (C09).
   Plain Coq. *)
From Coq Require Import String ZArith Bool Arith List Lia.
From SV Require Import Names NamesFacts ListFacts Rep Fresh Complex Atomic RepInv Shapes AddEffect WorldProofs CopyFaithful.
Import ListNotations.
Open Scope nat_scope.

Record ainv (uid : nat) (r : rep) : Prop := {
  a_uid : r_uid r = uid;
  a_dom : forall s, assoc s (r_attr r) = None <-> assoc s (r_simp r) = None;
  a_own : forall s h, assoc s (r_attr r) = Some h -> fst h = uid /\ snd h < r_nalloc r }.

Lemma ainv_empty uid : ainv uid (empty_rep uid).
Proof. constructor; [reflexivity | intros s; simpl; tauto | intros s h Hh; discriminate]. Qed.

(* the new cell is none of the earlier ones: the allocator was above them (a_own) *)
Lemma alloc_add_ainv uid r r1 h1 fs s r2 id : ainv uid r -> alloc r = (r1, h1) ->
  addSimplex r1 fs (Some s) (Some h1) = (r2, Ok id) ->
  ainv uid r2 /\ fst h1 = uid /\ assoc s (r_attr r2) = Some h1 /\
  (forall t h, assoc t (r_attr r) = Some h -> assoc t (r_attr r2) = Some h /\ h <> h1).
Proof.
  intros [Hu Hd Ho] Ea E.
  assert (Ea' : r_attr r1 = r_attr r /\ r_simp r1 = r_simp r /\ r_uid r1 = r_uid r /\
                r_nalloc r1 = S (r_nalloc r) /\ h1 = (r_uid r, r_nalloc r)).
  { injection Ea as <- <-. repeat split. }
  destruct Ea' as (Ra & Rs & Ru & Rn & ->).
  destruct (addSimplex_given _ _ _ _ _ _ E) as (_ & Cs & ->).
  set (k := length fs - 1).
  destruct (add_struct_keeps r1 k) as (Su & Ss & Sa & _ & Sn).
  pose proof (add_final_keeps (add_struct r1 k) fs s (r_uid r, r_nalloc r) k) as F. cbv zeta in F.
  destruct F as (Fu & _ & Fa & _ & Fn).
  assert (Fs : exists pos, r_simp (add_final (add_struct r1 k) fs s (r_uid r, r_nalloc r) k) = r_simp (add_struct r1 k) ++ [(s, pos)])
    by (destruct k; simpl; eauto).
  destruct Fs as (pos & Fs).
  rewrite Sa, Ra in Fa. rewrite Sn, Rn in Fn. rewrite Su, Ru in Fu. rewrite Ss, Rs in Fs.
  assert (Hn : assoc s (r_simp r) = None) by (rewrite <- Rs; now apply containsSimplex_false_assoc).
  assert (Hnone : assoc s (r_attr r) = None) by now apply Hd.
  split; [constructor|].
  - now rewrite Fu.
  - intros t. rewrite Fa, Fs. destruct (name_eq_dec t s) as [->|Hne].
    + rewrite !assoc_new by assumption. split; discriminate.
    + rewrite !assoc_snoc_other by exact Hne. apply Hd.
  - intros t h. rewrite Fa, Fn. destruct (name_eq_dec t s) as [->|Hne].
    + rewrite assoc_new by exact Hnone. intros [= <-]. split; [exact Hu|cbn; lia].
    + rewrite assoc_snoc_other by exact Hne. intros A. destruct (Ho t h A). split; [assumption|lia].
  - split; [exact Hu|]. split; [rewrite Fa; now apply assoc_new|].
    intros t h A. split; [rewrite Fa; now apply assoc_old|]. intros ->.
    destruct (Ho _ _ A) as [_ Hlt]. cbn in Hlt. lia.
Qed.

Theorem bulk_add_attrs uid : forall (src : srcview) hp r st ns hp' r' st' ns',
  ainv uid r -> (forall s fs h, In (s, (fs, h)) src -> fst h <> uid) ->
  addFrom_loop hp r RNone st src ns = (hp', r', st', Ok ns') ->
  ainv uid r' /\
  (forall s fs h, In (s, (fs, h)) src ->
     exists h', assoc s (r_attr r') = Some h' /\ fst h' = uid /\ heap_get hp' h' = heap_get hp h) /\
  (forall s h', assoc s (r_attr r) = Some h' -> assoc s (r_attr r') = Some h' /\ heap_get hp' h' = heap_get hp h') /\
  agree_off uid hp hp'.
Proof.
  induction src as [|[s [fs h]] rest IH]; intros hp r st ns hp' r' st' ns' Hinv Hsrc H.
  - injection H as <- <- _ _. split; [exact Hinv|]. split; [intros s fs h []|]. split; [auto|apply agree_off_refl].
  - rewrite addFrom_loop_RNone_cons in H. destruct (alloc r) as [r1 h1] eqn:Ea.
    destruct (addSimplex r1 fs (Some s) (Some h1)) as [r2 [id|e]] eqn:E; [|discriminate].
    destruct (alloc_add_ainv _ _ _ _ _ _ _ _ Hinv Ea E) as (Hinv2 & Hh1 & A2 & Hold).
    assert (Hsrc' : forall s0 fs0 h0, In (s0, (fs0, h0)) rest -> fst h0 <> uid) by (intros; eapply Hsrc; right; eauto).
    destruct (IH _ _ _ _ _ _ _ _ Hinv2 Hsrc' H) as (Hinv' & Hrest & Hkeep & Hframe).
    pose proof (agree_off_set uid hp h1 (heap_get hp h) Hh1) as F.
    split; [exact Hinv'|]. split; [|split].
    + intros s0 fs0 h0 [[= <- <- <-]|Hin].
      * destruct (Hkeep s h1 A2) as [A' Hg]. exists h1. now rewrite Hg, heap_get_set_same.
      * destruct (Hrest s0 fs0 h0 Hin) as (h' & A' & Hf & Hg). exists h'. rewrite Hg, F by eauto. auto.
    + intros s0 h' A0. destruct (Hold s0 h' A0) as [A1 Hne]. destruct (Hkeep s0 h' A1) as [A' Hg].
      split; [exact A'|]. rewrite Hg. now apply heap_get_set_other.
    + exact (agree_off_trans _ _ _ _ F Hframe).
Qed.

(* copy(): every simplex of the copy has a dictionary owned by the copy whose contents are those
   of the source's dictionary; no dictionary of another owner is written *)
Theorem copy_attrs hp src uid hp' r' :
  (forall s h, assoc s (r_attr src) = Some h -> fst h <> uid) -> uid <> 0 ->
  copy_new hp (view_of src) uid = (hp', r', Ok tt) ->
  (forall s, In s (simplices src false) ->
     exists h', assoc s (r_attr r') = Some h' /\ fst h' = uid /\
       heap_get hp' h' = heap_get hp (match assoc s (r_attr src) with Some h => h | None => (0, 0) end)) /\
  (forall h0, fst h0 <> uid -> heap_get hp' h0 = heap_get hp h0).
Proof.
  intros Hown H0 H. destruct (copy_new_ok _ _ _ _ _ H) as (st & ns & E).
  assert (Hsrc : forall s fs h, In (s, (fs, h)) (view_of src) -> fst h <> uid).
  { intros s fs h Hin. unfold view_of in Hin. apply in_map_iff in Hin. destruct Hin as (s0 & Eq & _).
    injection Eq as <- <- <-. destruct (assoc s0 (r_attr src)) as [h0|] eqn:A; [eapply Hown; eauto | simpl; auto]. }
  destruct (bulk_add_attrs uid _ _ _ _ _ _ _ _ _ (ainv_empty uid) Hsrc E) as (_ & Hall & _ & Hframe).
  split; [|exact Hframe]. intros s Hs. unfold view_of in Hall. exact (Hall _ _ _ (in_map _ _ s Hs)).
Qed.
