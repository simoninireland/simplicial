(* SnapCounts.v -- C14: the per-order counts a filtration reports at its index (numberOfSimplicesOfOrder: the counts
   of the visible simplices per order with trailing zeros dropped) are the list the snapshot reports.  The snapshot's
   top order is populated (TopOrder), so its own list has no trailing zero.  Plain Coq. *)
From Coq Require Import String ZArith Bool Arith List Lia.
From SV Require Import ListFacts Rep Complex Homology RepInv ReachGen Shapes Closed Filtration Listing TopOrder FlagSound CpsGen.
Import ListNotations.
Open Scope nat_scope.

Lemma strip_zeros_app_zeros l n : strip_zeros (l ++ repeat 0 n) = strip_zeros l.
Proof.
  induction l as [|x l IH]; simpl.
  - induction n as [|n IHn]; simpl; [reflexivity|]. now rewrite IHn.
  - now rewrite IH.
Qed.

Lemma strip_zeros_id l : (l = [] \/ last l 0 <> 0) -> strip_zeros l = l.
Proof.
  induction l as [|x l IH]; intros H; simpl; [reflexivity|].
  destruct l as [|y l'].
  - simpl. destruct H as [H|H]; [discriminate|]. simpl in H. destruct (x =? 0) eqn:E; [apply Nat.eqb_eq in E; congruence|reflexivity].
  - rewrite IH.
    + reflexivity.
    + right. destruct H as [H|H]; [discriminate|]. exact H.
Qed.

Lemma copy_new_tcinv hp src uid hp' c x : copy_new hp src uid = (hp', c, x) -> tcinv c.
Proof.
  intros H. eapply (copy_new_I tcinv);
    eauto using tcinv_same_obs, tcinv_empty, addSimplex_tcinv, relabelSimplex_tcinv, deleteSimplex_tcinv.
Qed.

Lemma flagComplex_tcinv hp r uid hp' f x : flagComplex hp r uid = (hp', f, x) -> tcinv f.
Proof.
  unfold flagComplex. destruct (copy_new hp (view_of r) uid) as [[hp1 c] y] eqn:E0.
  pose proof (copy_new_tcinv _ _ _ _ _ _ E0) as T. destruct y as [[]|e]; [|intros H; now injection H as _ <- _].
  destruct (completePotentialSimplices c (flag_seed c)) as [c' z] eqn:E1. intros H. injection H as _ <- _.
  exact (completePotentialSimplices_I tcinv (fun r0 fs => addSimplex_tcinv r0 fs None None) c _ c' z T E1).
Qed.

Theorem snap_counts_per_order hp f uid hp' c : cinv (f_rep f) -> copy_new hp (f_view f) uid = (hp', c, Ok tt) ->
  numberOfSimplicesOfOrder c = f_numberOfSimplicesOfOrder f.
Proof.
  intros Hc H. unfold numberOfSimplicesOfOrder, f_numberOfSimplicesOfOrder. set (fr := f_rep f).
  set (g := fun k => length (simplicesOfOrder c k)).
  rewrite (map_ext (fun k => length (filter (f_contains f) (simplicesOfOrder fr k))) g)
    by (intros k; unfold g; now rewrite (snap_listing_per_order hp f uid hp' c Hc H)).
  pose proof (copy_new_tcinv _ _ _ _ _ _ H) as [Cc Tc]. pose proof (s_p c (c_s c Cc)) as Pc.
  assert (Top : forall k, S k = r_nord c -> g k <> 0).
  { intros k Hk. destruct (Tc k Hk) as (s & j & As). pose proof (proj2 (listed_assoc c s k Pc) (ex_intro _ j As)) as Hin.
    unfold g. destruct (simplicesOfOrder c k); [destruct Hin|simpl; lia]. }
  assert (Le : r_nord c <= r_nord fr).
  { destruct (r_nord c) as [|k] eqn:E; [lia|]. destruct (Nat.lt_ge_cases k (r_nord fr)) as [Hl|Hl]; [lia|].
    exfalso. apply (Top k eq_refl). unfold g. now rewrite (snap_above hp f uid hp' c Hc H). }
  replace (r_nord fr) with (r_nord c + (r_nord fr - r_nord c)) by lia.
  rewrite (map_seq_pad g 0) by (intros j Hj; unfold g; now rewrite simplicesOfOrder_above).
  rewrite strip_zeros_app_zeros. symmetry. apply strip_zeros_id.
  destruct (r_nord c) as [|k] eqn:E; [now left|right].
  rewrite seq_S, map_app. simpl. rewrite last_last. apply Top. lia.
Qed.
