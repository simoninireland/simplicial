(* Counts.v -- C18: k_simplex(k) adds exactly C(k+1, j+1) simplices of order j and k_void(k)
   C(k+2, j+1) for j <= k (none of order k+1), on every target that meets the vertex-set reading.
   Simplices of order j that a generator adds are in bijection with the (j+1)-element subsequences
   of its new points.  Plain Coq. *)
From Coq Require Import String ZArith Bool Arith List Lia.
From SV Require Import Names NamesFacts ListFacts Rep Fresh Complex Homology Atomic RepInv Shapes Incidence AddEffect
                       Closed ClosedReach AddBasis BasisInv Duality DeleteEffect CopyFaithful VInv AwbSpec Gen VSets GenSets
                       ClosureCount FlagExt MinCycle FlagSound FlagComplete Listing.
Import ListNotations.
Open Scope nat_scope.

Fixpoint binom (n k : nat) : nat :=
  match n, k with
  | _, 0 => 1
  | 0, S _ => 0
  | S n', S k' => binom n' k' + binom n' (S k')
  end.

Lemma binom_above n : forall k, n < k -> binom n k = 0.
Proof. induction n as [|n IH]; intros [|k] H; try lia; simpl; [reflexivity|]. rewrite !IH by lia. reflexivity. Qed.

Lemma binom_all_but_one n : binom (S n) n = S n.
Proof.
  assert (D : forall m, binom m m = 1).
  { induction m as [|m IH]; simpl; [reflexivity|]. rewrite IH, binom_above by lia. reflexivity. }
  induction n as [|n IH]; [reflexivity|]. cbn [binom] in *. rewrite IH, D, binom_above by lia. lia.
Qed.

Lemma combs_count {A} : forall k (l : list A), length (combs k l) = binom (length l) k.
Proof.
  induction k as [|k IHk]; intros l; [destruct l; reflexivity|].
  induction l as [|x t IHl]; [reflexivity|]. cbn [combs length binom]. rewrite app_length, map_length, IHk, IHl. reflexivity.
Qed.

Lemma combs_subseqs {A} : forall k (l c : list A), In c (combs k l) -> In c (subseqs l).
Proof.
  induction k as [|k IHk]; intros l c H.
  - assert (c = []) by (destruct l; simpl in H; destruct H as [H|H]; auto; destruct H). subst c.
    clear H. induction l as [|x t IHl]; [now left|]. simpl. apply in_or_app. now right.
  - induction l as [|x t IHl]; [destruct H|]. simpl in H. apply in_app_or in H. simpl. apply in_or_app. destruct H as [H|H].
    + left. apply in_map_iff in H. destruct H as (c0 & <- & Hc0). apply in_map. eapply IHk; eauto.
    + right. now apply IHl.
Qed.

Lemma subseqs_combs {A} : forall (l c : list A), In c (subseqs l) -> In c (combs (length c) l).
Proof.
  induction l as [|x t IH]; intros c H.
  - destruct H as [<-|[]]. now left.
  - simpl in H. apply in_app_or in H. destruct H as [H|H].
    + apply in_map_iff in H. destruct H as (c0 & <- & Hc0). simpl. apply in_or_app. left. apply in_map. now apply IH.
    + destruct c as [|y c']; [simpl; now left|]. simpl. apply in_or_app. right. exact (IH (y :: c') H).
Qed.

Lemma NoDup_combs : forall k (l : list name), NoDup l -> NoDup (combs k l).
Proof.
  induction k as [|k IHk]; intros l Hl; [destruct l; repeat constructor; intros []|].
  induction l as [|x t IHl]; [constructor|]. inversion Hl as [|? ? Hx Ht]; subst. simpl.
  apply NoDup_app'.
  - apply NoDup_map_inj_in; [now apply IHk|]. intros a b _ _ E. now injection E.
  - now apply IHl.
  - intros c H1 H2. apply in_map_iff in H1. destruct H1 as (c0 & <- & _).
    apply combs_subseqs, subseqs_incl in H2. apply Hx, H2. now left.
Qed.

Lemma filter_partition_length {A} (f : A -> bool) l : length l = length (filter f l) + length (filter (fun x => negb (f x)) l).
Proof. induction l as [|a t IH]; simpl; [reflexivity|]. destruct (f a); simpl; lia. Qed.

Section Count.
  Variables r r' : rep.
  Hypothesis Hv : vinv r.
  Hypothesis Hv' : vinv r'.
  Variable new : list name.
  Hypothesis Hnd : NoDup new.
  Hypothesis Hfresh : forall p, In p new -> containsSimplex r p = false.
  Hypothesis Hold : forall t, containsSimplex r t = true -> containsSimplex r' t = true /\ sameset (basisOf r' t) (basisOf r t).
  Variable qb : list name -> bool.
  Hypothesis qb_ext : forall a b, sameset a b -> qb a = qb b.
  Hypothesis Hsets : forall B, NoDup B -> B <> [] ->
    (carried r' B <-> carried r B \/ (incl B new /\ qb B = true)).

  Let P : pinv r := vinv_pinv r Hv.
  Let P' : pinv r' := vinv_pinv r' Hv'.

  Lemma order_of_card r0 t k j : vinv r0 -> assoc t (r_simp r0) = Some (k, j) -> length (basisOf r0 t) = S k.
  Proof. intros V A. exact (v_card r0 V t k j A). Qed.

  Lemma old_order t k j : assoc t (r_simp r) = Some (k, j) -> exists j', assoc t (r_simp r') = Some (k, j').
  Proof.
    intros A. destruct (Hold t (assoc_contains r t _ _ A)) as [C' S']. apply containsSimplex_assoc in C'. destruct C' as (k' & j' & A').
    assert (k' = k); [|subst; eauto].
    pose proof (v_card r Hv t k j A) as L. pose proof (v_card r' Hv' t k' j' A') as L'.
    rewrite (NoDup_same_length (basisOf r' t) (basisOf r t)) in L'; [lia| apply basis_nodup; exact P' | apply basis_nodup; exact P | exact S'].
  Qed.

  Lemma fresh_on_new t : containsSimplex r' t = true -> containsSimplex r t = false ->
    incl (basisOf r' t) new /\ qb (basisOf r' t) = true.
  Proof.
    intros C' C.
    assert (Hne : basisOf r' t <> []).
    { destruct (basis_nonempty r' t Hv' C') as (p & Hp). intros E. rewrite E in Hp. destruct Hp. }
    destruct (proj1 (Hsets (basisOf r' t) (basis_nodup r' t P') Hne)) as [(t0 & C0 & S0)|H];
      [exists t; split; [exact C' | apply sameset_refl] | | exact H].
    exfalso. destruct (Hold t0 C0) as [C0' S0'].
    assert (t0 = t); [|subst; congruence].
    apply (v_uniq r' Hv'); auto. exact (sameset_trans _ _ _ S0' S0).
  Qed.

  Theorem count_added j :
    length (simplicesOfOrder r' j) = length (simplicesOfOrder r j) + length (filter qb (combs (S j) new)).
  Proof.
    set (L' := simplicesOfOrder r' j). set (L := simplicesOfOrder r j).
    rewrite (filter_partition_length (containsSimplex r) L'). f_equal.
    - (* the old ones *)
      apply NoDup_same_length; [apply NoDup_filter; apply simplicesOfOrder_nodup; exact P' | apply simplicesOfOrder_nodup; exact P|].
      intros t. rewrite filter_In. split.
      + intros [Ht Ct]. destruct (proj1 (listed_assoc r' t j P') Ht) as (j' & A').
        apply containsSimplex_assoc in Ct. destruct Ct as (k & i & A). destruct (old_order t k i A) as (i' & A2).
        rewrite A' in A2. injection A2 as <- _. apply (listed_assoc r t j P). eauto.
      + intros Ht. destruct (proj1 (listed_assoc r t j P) Ht) as (i & A). destruct (old_order t j i A) as (i' & A').
        split; [apply (listed_assoc r' t j P'); eauto | exact (assoc_contains r t _ _ A)].
    - (* the new ones, each against the sublist of the new points that is its basis *)
      set (F := filter (fun x => negb (containsSimplex r x)) L').
      assert (InF : forall t, In t F <-> In t L' /\ containsSimplex r t = false).
      { intros t. unfold F. rewrite filter_In, negb_true_iff. tauto. }
      set (g := fun t => canon new (basisOf r' t)).
      assert (Gs : forall t, In t F -> exists i, assoc t (r_simp r') = Some (j, i) /\ sameset (g t) (basisOf r' t) /\ qb (g t) = true).
      { intros t Ht. apply InF in Ht. destruct Ht as [Ht Cn]. destruct (proj1 (listed_assoc r' t j P') Ht) as (i & A). exists i.
        destruct (fresh_on_new t (assoc_contains r' t _ _ A) Cn) as [Hi Hq].
        pose proof (canon_sameset new (basisOf r' t) Hi) as Sc. split; [exact A|]. split; [exact Sc|]. exact (eq_trans (qb_ext _ _ Sc) Hq). }
      rewrite <- (map_length g F). apply NoDup_same_length.
      + apply NoDup_map_inj_in; [apply NoDup_filter, simplicesOfOrder_nodup, P'|]. intros a b Ha Hb E.
        destruct (Gs a Ha) as (ia & Aa & Sa & _). destruct (Gs b Hb) as (ib & Ab & Sb & _).
        apply (v_uniq r' Hv'); [eapply assoc_contains; eauto | eapply assoc_contains; eauto|].
        apply (sameset_trans _ (g a)); [now apply sameset_sym | now rewrite E].
      + apply NoDup_filter, NoDup_combs, Hnd.
      + intros c. rewrite in_map_iff, filter_In. split.
        * intros (t & <- & Ht). destruct (Gs t Ht) as (i & A & Sc & Hq). split; [|exact Hq].
          assert (Lc : length (g t) = S j).
          { rewrite <- (v_card r' Hv' t j i A). apply NoDup_same_length; [now apply NoDup_filter | apply basis_nodup; exact P' | exact Sc]. }
          rewrite <- Lc. apply subseqs_combs, filter_is_subseq.
        * intros [Hc Hq]. pose proof (combs_length _ _ _ Hc) as Lc. pose proof (combs_subseqs _ _ _ Hc) as Hs.
          pose proof (subseqs_nodup new c Hnd Hs) as Ndc. pose proof (subseqs_incl new c Hs) as Hic.
          destruct (proj2 (Hsets c Ndc ltac:(destruct c; [discriminate|congruence]))) as (t & Ct & St); [right; auto|].
          exists t. split; [rewrite <- (filter_subseq new c Hnd Hs); now apply canon_ext|].
          apply InF. pose proof Ct as X. apply containsSimplex_assoc in X. destruct X as (k & i & A).
          assert (k = j).
          { pose proof (v_card r' Hv' t k i A) as L0. rewrite (NoDup_same_length (basisOf r' t) c) in L0; [lia|apply basis_nodup; exact P'|exact Ndc|exact St]. }
          subst k. split; [apply (listed_assoc r' t j P'); eauto|].
          (* t is not old: its points are new, those of old simplices are not *)
          destruct (containsSimplex r t) eqn:Cr; [|reflexivity]. exfalso.
          destruct (Hold t Cr) as [_ So]. destruct c as [|p c']; [discriminate|].
          destruct (basis_in_points r t p P) as (ip & Ap); [apply So, St; now left|].
          pose proof (assoc_contains r p _ _ Ap) as Cp. rewrite (Hfresh p (Hic p (or_introl eq_refl))) in Cp. discriminate.
  Qed.
End Count.

(* C18: k_simplex(k), k >= 1, adds exactly C(k+1, j+1) simplices of order j, whatever the target held *)
Theorem k_simplex_counts k id attr r r' : vinv r -> 1 <= k -> k_simplex k id attr r = (r', Ok tt) ->
  forall j, length (simplicesOfOrder r' j) = length (simplicesOfOrder r j) + binom (S k) (S j).
Proof.
  intros Hv Hk H j.
  destruct (k_simplex_vertex_sets k id attr r r' Hv Hk H) as (new & Hl & Hnd & Hfresh & Hv' & Hold & Hsets).
  rewrite (count_added r r' Hv Hv' new Hnd Hfresh) with (qb := fun _ => true).
  - rewrite filter_all by reflexivity. now rewrite combs_count, Hl.
  - intros t Ct. destruct (Hold t Ct) as (C' & _ & _ & B). split; [exact C'|]. rewrite B. apply sameset_refl.
  - reflexivity.
  - intros B NB Hne. unfold carried. rewrite (Hsets B NB Hne). tauto.
Qed.

(* C18: k_void(k) adds C(k+2, j+1) simplices of order j <= k and none of order k+1 or above *)
Theorem k_void_counts k r r' : vinv r -> k_void k r = (r', Ok tt) ->
  forall j, length (simplicesOfOrder r' j) = length (simplicesOfOrder r j) + (if j <=? k then binom (S (S k)) (S j) else 0).
Proof.
  intros Hv H j.
  destruct (k_void_vertex_sets k r r' Hv H) as (new & Hl & Hnd & Hfresh & Hv' & Hold & Hsets).
  rewrite (count_added r r' Hv Hv' new Hnd Hfresh Hold (fun B => negb (subsetn new B))).
  - f_equal. destruct (j <=? k) eqn:E.
    + apply Nat.leb_le in E. rewrite filter_all; [now rewrite combs_count, Hl|].
      intros c Hc. apply negb_true_iff. destruct (subsetn new c) eqn:Es; [|reflexivity]. exfalso.
      apply subsetn_incl in Es. pose proof (NoDup_incl_length Hnd Es) as L. rewrite (combs_length _ _ _ Hc) in L. lia.
    + apply Nat.leb_gt in E. rewrite filter_none; [reflexivity|].
      intros c Hc. apply negb_false_iff. apply subsetn_incl.
      pose proof (combs_subseqs _ _ _ Hc) as Hs. pose proof (combs_length _ _ _ Hc) as Lc.
      apply NoDup_length_incl; [exact (subseqs_nodup new c Hnd Hs) | lia | now apply subseqs_incl].
  - intros a b Sab. f_equal. destruct (subsetn new a) eqn:Ea, (subsetn new b) eqn:Eb; auto.
    + apply subsetn_incl in Ea. assert (subsetn new b = true) by (apply subsetn_incl; intros x Hx; apply Sab; now apply Ea). congruence.
    + apply subsetn_incl in Eb. assert (subsetn new a = true) by (apply subsetn_incl; intros x Hx; apply Sab; now apply Eb). congruence.
  - intros B NB Hne. unfold carried. rewrite (Hsets B NB Hne). split; (intros [Hc|[Hi Hq]]; [now left | right; split; [exact Hi|]]).
    + apply negb_true_iff. destruct (subsetn new B) eqn:E; auto. apply subsetn_incl in E. contradiction.
    + apply negb_true_iff in Hq. intros Hin. apply subsetn_incl in Hin. congruence.
Qed.
