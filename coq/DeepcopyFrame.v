(* Heap frame of copy.deepcopy (World.deepcopy_rep): the dictionaries that existed before the call
   are not written; every cell written belongs to the new object's owner uid; the new complex has
   the structure of the source, field by field, and one attribute entry per entry of the source,
   each owned by uid and holding what the source's dictionary held at the time of the call
   (provided no dictionary of the source is already owned by uid -- uid is fresh in exec). *)
From Coq Require Import String ZArith Bool Arith List Lia.
Import ListNotations.
From SV Require Import Names NamesFacts ListFacts Rep Fresh Complex Atomic RepInv Homology Filtration Gen World WorldProofs.

Definition dc_acc := (heap * list (name * handle) * nat * list (handle * handle))%type.
Definition dc_step (uid : nat) (acc : dc_acc) (p : name * handle) : dc_acc :=
  let '(hp1, at1, n1, memo) := acc in
  match find (fun m => handle_eqb (fst m) (snd p)) memo with
  | Some m => (hp1, at1 ++ [(fst p, snd m)], n1, memo)
  | None => let h' := (uid, n1) in
            (heap_set hp1 h' (heap_get hp1 (snd p)), at1 ++ [(fst p, h')], S n1, memo ++ [(snd p, h')])
  end.

Lemma deepcopy_rep_unfold hp r uid :
  deepcopy_rep hp r uid =
  let '(hp', attr', n, _) := fold_left (dc_step uid) (r_attr r) (hp, [], 0, []) in
  (hp', mkRep uid (r_nord r) (r_simp r) (r_idx r) (r_bnd r) (r_bas r) attr' (r_seq r) n).
Proof. reflexivity. Qed.

Section Fold.
Variables (uid : nat) (hp0 : heap).

(* dst is a cell of the copy, made before the allocator reached n, and holds what src held at the
   call -- unless src is itself a cell of uid, which the loop may have overwritten *)
Definition good (n : nat) (hp1 : heap) (src dst : handle) : Prop :=
  fst dst = uid /\ snd dst < n /\ (fst src <> uid -> heap_get hp1 dst = heap_get hp0 src).

Lemma good_step n hp1 d src dst : good n hp1 src dst -> good (S n) (heap_set hp1 (uid, n) d) src dst.
Proof.
  intros (H1 & H2 & H3). split; [exact H1|]. split; [lia|]. intros Hs.
  rewrite heap_get_set_other; [now apply H3|]. intros ->. simpl in H2. lia.
Qed.

Definition inv (acc : dc_acc) (done : list (name * handle)) : Prop :=
  let '(hp1, at1, n1, memo) := acc in
  agree_off uid hp0 hp1 /\
  Forall (fun m => good n1 hp1 (fst m) (snd m)) memo /\
  Forall2 (fun q p => fst q = fst p /\ good n1 hp1 (snd p) (snd q)) at1 done.

Lemma inv_step acc done p : inv acc done -> inv (dc_step uid acc p) (done ++ [p]).
Proof.
  destruct acc as [[[hp1 at1] n1] memo]. intros (HA & HB & HC). unfold dc_step.
  destruct (find (fun m => handle_eqb (fst m) (snd p)) memo) as [m|] eqn:F.
  - apply find_some in F. destruct F as [Fin Feq]. apply handle_eqb_eq in Feq.
    split; [exact HA|]. split; [exact HB|].
    apply Forall2_app; [exact HC|]. constructor; [|constructor]. split; [reflexivity|].
    cbn [snd]. rewrite <- Feq. rewrite Forall_forall in HB. exact (HB _ Fin).
  - assert (G : good (S n1) (heap_set hp1 (uid, n1) (heap_get hp1 (snd p))) (snd p) (uid, n1)).
    { split; [reflexivity|]. split; [cbn; lia|]. intros Hp. rewrite heap_get_set_same. now apply HA. }
    split; [|split].
    + apply (agree_off_trans _ _ _ _ HA). now apply agree_off_set.
    + apply Forall_app. split; [|constructor; [exact G|constructor]].
      eapply Forall_impl; [|exact HB]. intros m. apply good_step.
    + apply Forall2_app; [|constructor; [split; [reflexivity|exact G]|constructor]].
      eapply Forall2_impl; [|exact HC]. intros q p' [Hq Hg]. split; [exact Hq|]. now apply good_step.
Qed.

Lemma inv_fold l : forall acc done, inv acc done -> inv (fold_left (dc_step uid) l acc) (done ++ l).
Proof.
  induction l as [|p l IH]; intros acc done Hi; cbn [fold_left]; [now rewrite app_nil_r|].
  replace (done ++ p :: l) with ((done ++ [p]) ++ l) by now rewrite <- app_assoc.
  apply IH. now apply inv_step.
Qed.
End Fold.

Theorem deepcopy_entries hp r uid hp' r' : deepcopy_rep hp r uid = (hp', r') ->
  agree_off uid hp hp' /\
  Forall2 (fun q p => fst q = fst p /\ fst (snd q) = uid /\
                      (fst (snd p) <> uid -> heap_get hp' (snd q) = heap_get hp (snd p)))
          (r_attr r') (r_attr r).
Proof.
  rewrite deepcopy_rep_unfold. intros H.
  assert (I : inv uid hp (hp, [], 0, []) []) by (split; [apply agree_off_refl|split; constructor]).
  apply (inv_fold uid hp (r_attr r)) in I. cbn [app] in I.
  destruct (fold_left (dc_step uid) (r_attr r) (hp, [], 0, [])) as [[[hp1 at1] n1] memo1].
  injection H as <- <-. destruct I as (HA & _ & HC). split; [exact HA|].
  eapply Forall2_impl; [|exact HC]. intros q p (Hq & Hu & _ & Hg). auto.
Qed.

Theorem deepcopy_same_structure hp r uid hp' r' :
  deepcopy_rep hp r uid = (hp', r') ->
  r_uid r' = uid /\ r_nord r' = r_nord r /\ r_simp r' = r_simp r /\ r_idx r' = r_idx r /\
  r_bnd r' = r_bnd r /\ r_bas r' = r_bas r /\ r_seq r' = r_seq r.
Proof.
  rewrite deepcopy_rep_unfold. intros H.
  destruct (fold_left (dc_step uid) (r_attr r) (hp, [], 0, [])) as [[[hp1 at1] n1] memo1].
  injection H as _ <-. cbn. repeat split; reflexivity.
Qed.

Theorem deepcopy_attr_names_and_owner hp r uid hp' r' :
  deepcopy_rep hp r uid = (hp', r') ->
  map fst (r_attr r') = map fst (r_attr r) /\ Forall (fun q => fst (snd q) = uid) (r_attr r').
Proof.
  intros H. destruct (deepcopy_entries _ _ _ _ _ H) as [_ F].
  induction F as [|q p l' l (Hq & Hu & _) _ [IH1 IH2]]; cbn; [auto|]. split; [f_equal; assumption|auto].
Qed.

(* in the terms of the other constructors: the copy owns its dictionaries under uid, and no cell
   of another owner is written *)
Theorem deepcopy_fresh hp r uid hp' r' : deepcopy_rep hp r uid = (hp', r') ->
  owned r' /\ r_uid r' = uid /\ agree_off uid hp hp'.
Proof.
  intros H. destruct (deepcopy_same_structure _ _ _ _ _ H) as (Hu & _).
  destruct (deepcopy_attr_names_and_owner _ _ _ _ _ H) as (_ & Hf). rewrite Forall_forall in Hf.
  split; [|split; [exact Hu|apply (deepcopy_entries _ _ _ _ _ H)]].
  intros s h Hin. rewrite Hu. exact (Hf _ Hin).
Qed.

(* non-vacuity: two names sharing one dictionary and a third with its own; the copy has three
   entries under the new owner, the shared dictionary is copied once, the source's cells are intact *)
Example deepcopy_example :
  let d1 := [("k"%string, AInt 1%Z)] in let d2 := [("k"%string, AInt 2%Z)] in
  let hp := [((0, 0), d1); ((0, 1), d2)] in
  let r := mkRep 0 1 [] [] [] [] [(NInt 1%Z, (0, 0)); (NInt 2%Z, (0, 0)); (NInt 3%Z, (0, 1))] 0 2 in
  let '(hp', r') := deepcopy_rep hp r 7 in
  r_attr r' = [(NInt 1%Z, (7, 0)); (NInt 2%Z, (7, 0)); (NInt 3%Z, (7, 1))] /\
  heap_get hp' (7, 0) = d1 /\ heap_get hp' (7, 1) = d2 /\ heap_get hp' (0, 0) = d1 /\ heap_get hp' (0, 1) = d2.
Proof. vm_compute. repeat split; reflexivity. Qed.
