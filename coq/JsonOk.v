(* JsonOk.v -- the decoder accepts the encoding of every complex that meets the vertex-set reading
   (C17): at the level of the encoded records, decoding replays exactly the adds of copy(), whose
   success is CopyOk.v.  Plain Coq. *)
From Coq Require Import String ZArith Bool Arith List Lia.
From SV Require Import Names NamesFacts ListFacts Rep Fresh Complex Atomic RepInv Shapes Incidence AddEffect
                       Closed ClosedReach AddBasis BasisInv VInv CopyFaithful Homology World CopyOk.
Import ListNotations.
Open Scope nat_scope.

Lemma decode_like_bulk_add hp0 : forall (v : srcview) hp hpb r st ns,
  exists hpd, decode hp r (encode_view hp0 v) =
              (hpd, snd (fst (fst (addFrom_loop hpb r RNone st v ns))),
               bind (snd (addFrom_loop hpb r RNone st v ns)) (fun _ => Ok tt)).
Proof.
  induction v as [|[s [fs h]] rest IH]; intros hp hpb r st ns.
  - exists hp. reflexivity.
  - cbn [encode_view map decode fst snd j_faces j_id j_attr]. rewrite addFrom_loop_RNone_cons.
    destruct (alloc r) as [r1 h'].
    destruct (addSimplex r1 fs (Some s) (Some h')) as [r2 [id|e]]; [apply IH|eexists; reflexivity].
Qed.

Theorem json_decode_succeeds src hp0 hp uid : vinv src ->
  exists hp' r', decode hp (empty_rep uid) (encode_view hp0 (view_of src)) = (hp', r', Ok tt).
Proof.
  intros Hv. destruct (copy_new_succeeds src Hv hp uid) as (hpc & c & E).
  unfold copy_new, addSimplicesFrom in E.
  destruct (decode_like_bulk_add hp0 (view_of src) hp hp (empty_rep uid) rl0 []) as (hpd & Ed).
  destruct (addFrom_loop hp (empty_rep uid) RNone rl0 (view_of src) []) as [[[hpa ra] sta] xa].
  injection E as _ _ Ex. cbn [fst snd] in Ed. rewrite Ed, Ex. eauto.
Qed.
