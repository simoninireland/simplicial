(* BulkRenamedAttrs.v -- C15: the attribute values of a bulk add under a renaming: every source simplex s arrives as phi(s)
   with a dictionary of the receiver's own (allocated after all earlier ones) that holds what the source's dictionary holds;
   the receiver's earlier dictionaries keep their contents; no dictionary of another owner is written.  Plain Coq. *)
From Coq Require Import String ZArith Bool Arith List Lia.
From SV Require Import Names NamesFacts ListFacts Rep Fresh Complex Atomic RepInv Shapes AddEffect CopyFaithful
                       RelabelProofs RelabelAll RelabelPhi WorldProofs CopyAttrs BulkRenamed.
Import ListNotations.
Open Scope nat_scope.

Theorem bulk_add_renamed_attrs rn uid : rn <> RNone -> forall (src : srcview) hp r st ns hp' r' st' ns',
  ainv uid r -> (forall s fs h, In (s, (fs, h)) src -> fst h <> uid) ->
  addFrom_loop hp r rn st src ns = (hp', r', st', Ok ns') ->
  let phi := memo_of st' in
  ainv uid r' /\
  (forall s fs h, In (s, (fs, h)) src ->
     exists h', assoc (phi s) (r_attr r') = Some h' /\ fst h' = uid /\ heap_get hp' h' = heap_get hp h) /\
  (forall s h', assoc s (r_attr r) = Some h' -> assoc s (r_attr r') = Some h' /\ heap_get hp' h' = heap_get hp h') /\
  (forall h0, fst h0 <> uid -> heap_get hp' h0 = heap_get hp h0).
Proof.
  intros Hn src hp r st ns hp' r' st' ns' Hinv Hsrc H phi.
  destruct (addFrom_loop_renamed rn Hn _ _ _ _ _ _ _ _ _ H) as [_ R]. specialize (R st). fold phi in R.
  assert (Hsrc' : forall s fs h, In (s, (fs, h)) (map (rename_entry phi) src) -> fst h <> uid).
  { intros s fs h Hin. apply in_map_iff in Hin. destruct Hin as ([s0 [fs0 h0]] & [= _ _ <-] & Hin). eauto. }
  destruct (bulk_add_attrs uid _ _ _ _ _ _ _ _ _ Hinv Hsrc' R) as (Hinv' & Hall & Hkeep & Hframe).
  split; [exact Hinv'|]. split; [|split; assumption].
  intros s fs h Hin. exact (Hall _ _ _ (in_map (rename_entry phi) _ _ Hin)).
Qed.
