(* Continuation.v -- the primitive mutators are functions of the observable fields: on observably
   equal complexes they give the same outcome and observably equal results.  With atomicity
   (a rejected request leaves an observably equal complex, Atomic.v) this is C05's "valid calls
   issued afterwards behave as if the rejected one had never been made", for requests that name
   their simplex and bring their attribute dictionary (a generated name or a fresh dictionary
   depends on counters that a rejected call may have advanced).  Plain Coq. *)
From Coq Require Import String ZArith Bool Arith List Lia.
From SV Require Import Names NamesFacts ListFacts Rep Fresh Complex Atomic RepInv Shapes.
Import ListNotations.
Open Scope nat_scope.

Theorem relabelSimplex_respects r1 r2 s q : same_obs r1 r2 ->
  snd (relabelSimplex r1 s q) = snd (relabelSimplex r2 s q) /\
  same_obs (fst (relabelSimplex r1 s q)) (fst (relabelSimplex r2 s q)).
Proof.
  intros Hs. rewrite (same_obs_eq r1 r2 Hs). unfold relabelSimplex, containsSimplex. cbn [r_simp].
  destruct (assoc q (r_simp r1)); [repeat split|].
  destruct (assoc s (r_simp r1)) as [[k i]|]; repeat split.
Qed.

Theorem forceDeleteSimplex_respects r1 r2 s : same_obs r1 r2 ->
  snd (forceDeleteSimplex r1 s) = snd (forceDeleteSimplex r2 s) /\
  same_obs (fst (forceDeleteSimplex r1 s)) (fst (forceDeleteSimplex r2 s)).
Proof.
  intros Hs. rewrite (same_obs_eq r1 r2 Hs). unfold forceDeleteSimplex. cbn [r_simp r_nord r_idx].
  destruct (assoc s (r_simp r1)) as [[k i]|]; [destruct (_ && _)|]; repeat split.
Qed.

Lemma add_struct_respects r1 r2 k : same_obs r1 r2 -> same_obs (add_struct r1 k) (add_struct r2 k).
Proof.
  intros Hs. rewrite (same_obs_eq r1 r2 Hs). unfold add_struct. cbn [r_nord].
  destruct (r_nord r1 <=? k); cbn [r_nord set_struct]; destruct (S k <? _); repeat split.
Qed.

Lemma add_final_respects r1 r2 fs s h k : same_obs r1 r2 -> same_obs (add_final r1 fs s h k) (add_final r2 fs s h k).
Proof.
  intros Hs. rewrite (same_obs_eq r1 r2 Hs). destruct k; repeat split.
Qed.

Lemma addSimplex_outcome_respects r1 r2 fs n h : same_obs r1 r2 ->
  snd (addSimplex r1 fs (Some n) (Some h)) = snd (addSimplex r2 fs (Some n) (Some h)).
Proof.
  intros Hs. pose proof Hs as (_ & H2 & H3 & _). unfold addSimplex. rewrite (same_obs_contains r1 r2 n Hs).
  destruct (_ && _); [reflexivity|]. destruct (containsSimplex r1 n); [reflexivity|]. cbv beta iota zeta.
  rewrite (check_faces_respects r1 r2 _ fs H3), (simplexWithFaces_respects r1 r2 fs Hs), H2.
  destruct (negb _); [reflexivity|]. destruct (check_faces r1 _ fs) as [[]|e]; [|reflexivity].
  destruct (r_nord r1 <=? _); [destruct (r_nord r1 <? _) | destruct (0 <? _); [destruct (simplexWithFaces r1 fs) as [[sw|]|e]|]];
    try reflexivity; destruct (length fs - 1); reflexivity.
Qed.

Theorem addSimplex_respects r1 r2 fs n h : same_obs r1 r2 ->
  snd (addSimplex r1 fs (Some n) (Some h)) = snd (addSimplex r2 fs (Some n) (Some h)) /\
  same_obs (fst (addSimplex r1 fs (Some n) (Some h))) (fst (addSimplex r2 fs (Some n) (Some h))).
Proof.
  intros Hs. pose proof (addSimplex_outcome_respects r1 r2 fs n h Hs) as Ho. split; [exact Ho|].
  destruct (addSimplex r1 fs (Some n) (Some h)) as [r1' x1] eqn:E1.
  destruct (addSimplex r2 fs (Some n) (Some h)) as [r2' x2] eqn:E2.
  simpl in Ho. subst x2. destruct x1 as [id|e]; simpl.
  - apply addSimplex_named in E1, E2. subst r1' r2'.
    apply add_final_respects, add_struct_respects. exact Hs.
  - apply addSimplex_atomic in E1, E2. destruct E1 as [A1 _], E2 as [A2 _].
    unfold same_obs in *. intuition congruence.
Qed.
