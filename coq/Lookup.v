(* Lookup.v -- looking a simplex up by its basis, and deleting by basis, in vertex sets. *)
From Coq Require Import String ZArith Bool Arith List Lia.
From SV Require Import Names NamesFacts ListFacts Rep Fresh Complex Atomic RepInv Shapes Incidence AddEffect
                       Closed ClosedReach AddBasis BasisInv Duality CopyFaithful VInv AwbSpec.
From SV Require Import VSets.
Import ListNotations.
Open Scope nat_scope.

(* simplexWithBasis(bs) on points of the complex (no repeats, not empty): the one simplex whose points
   are exactly bs, None exactly when there is none, never an exception *)
Theorem lookup_by_basis_exact r bs : vinv r -> pts r bs -> NoDup bs -> bs <> [] ->
  match c_simplexWithBasis r bs false with
  | Ok (Some s) => containsSimplex r s = true /\ sameset (basisOf r s) bs /\
                   forall t, containsSimplex r t = true -> sameset (basisOf r t) bs -> t = s
  | Ok None => forall t, containsSimplex r t = true -> ~ sameset (basisOf r t) bs
  | Raise _ => False
  end.
Proof.
  intros Hv Hp Hnd Hne. destruct (c_simplexWithBasis r bs false) as [[s|]|e] eqn:E.
  - destruct (lookup_some r bs s Hv E) as [Hc Hs]. split; auto. split; auto.
    intros t Ht Hst. apply (v_uniq r Hv); auto. exact (sameset_trans _ _ _ Hst (sameset_sym _ _ Hs)).
  - now destruct (lookup_none r bs Hv Hp Hnd Hne E).
  - unfold c_simplexWithBasis, simplexWithBasis in E. fold (c_isBasis r bs false) in E.
    rewrite (proj2 (isBasis_true_iff r bs) Hp) in E.
    destruct bs as [|b [|b2 t]]; [contradiction|discriminate|].
    cbv zeta in E. destruct (r_nord r <=? _); [discriminate|]. destruct (find _ _); discriminate.
Qed.

(* deleteSimplexWithBasis(bs): the simplex on bs and everything on a superset of bs go *)
Theorem delete_by_basis_vertex_sets r bs r' x : vinv r -> pts r bs -> NoDup bs -> bs <> [] ->
  deleteSimplexWithBasis r bs = (r', x) ->
  (x = Ok tt -> vinv r' /\
     (forall t, containsSimplex r' t = true <-> containsSimplex r t = true /\ ~ incl bs (basisOf r t)) /\
     (forall t, containsSimplex r' t = true -> sameset (basisOf r' t) (basisOf r t))) /\
  ((exists s, containsSimplex r s = true /\ sameset (basisOf r s) bs) -> x = Ok tt).
Proof.
  intros Hv Hp Hnd Hne H. unfold deleteSimplexWithBasis in H.
  pose proof (lookup_by_basis_exact r bs Hv Hp Hnd Hne) as L.
  destruct (c_simplexWithBasis r bs false) as [[s|]|e]; [|injection H as <- <-|contradiction].
  - destruct L as (Hc & Hs & _). destruct (deleteSimplex_vertex_sets r s r' x Hv Hc H) as (Hx & Hv' & Hm & Hb).
    split; [|auto]. intros _. split; auto. split; auto.
    intros t. rewrite Hm. split; intros [Ht Hn]; split; auto; intros Hi; apply Hn; intros z Hz; apply Hi, Hs, Hz.
  - split; [discriminate|]. intros (s & Hc & Hs). exfalso. exact (L s Hc Hs).
Qed.
