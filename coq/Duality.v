(* Duality.v -- closureOf and partOf are the two directions of one relation (C04): t is in the
   closure of s iff s is part of t, for every complex satisfying the shape invariant.  Both are
   characterised by chains: closureOf(s) lists what is reached from s by face steps, partOf(s) what
   is reached by coface steps, and cofaces is the inverse of faces (Incidence.v).  Plain Coq. *)
From Coq Require Import String ZArith Bool Arith List Lia.
From SV Require Import Names NamesFacts ListFacts Rep Fresh Complex Atomic RepInv Shapes Incidence.
From SV Require Import StarOrder.
Import ListNotations.
Open Scope nat_scope.

Lemma In_unionn x a b : In x (unionn a b) <-> In x a \/ In x b.
Proof.
  unfold unionn. rewrite in_app_iff, filter_In. split.
  - intros [H|[H _]]; auto.
  - intros [H|H]; auto. destruct (memn x a) eqn:M; [left; now apply memn_In|]. right. auto.
Qed.

Lemma intern_empty a b : (length (intern a b) =? 0) = true <-> forall x, In x a -> In x b -> False.
Proof.
  unfold intern. rewrite Nat.eqb_eq, length_zero_iff_nil. split.
  - intros E x Ha Hb. assert (Hin : In x (filter (fun y => memn y b) a)) by (apply filter_In; split; [exact Ha|now apply memn_In]).
    rewrite E in Hin. destruct Hin.
  - intros H. destruct (filter (fun y => memn y b) a) as [|x l] eqn:E; [reflexivity|]. exfalso.
    assert (Hin : In x (filter (fun y => memn y b) a)) by (rewrite E; now left).
    apply filter_In in Hin. destruct Hin as [Ha Hb]. apply memn_In in Hb. eauto.
Qed.

Lemma In_dedupn x l : In x (dedupn l) <-> In x l.
Proof.
  induction l as [|a l IH]; simpl; [tauto|]. rewrite filter_In, IH. split.
  - intros [->|[H _]]; auto.
  - intros [->|H]; [now left|]. destruct (name_eqb_spec a x) as [->|Hne]; [now left|]. right. split; [exact H|].
    destruct (name_eqb a x) eqn:E; [apply name_eqb_eq in E; contradiction | reflexivity].
Qed.

Lemma NoDup_dedupn l : NoDup (dedupn l).
Proof.
  induction l as [|a l IH]; simpl; constructor.
  - rewrite filter_In. intros [_ H]. rewrite name_eqb_refl in H. discriminate.
  - now apply NoDup_filter.
Qed.

Lemma filter_notin a l : ~ In a l -> filter (fun x => negb (name_eqb a x)) l = l.
Proof.
  induction l as [|b l IH]; intros H; [reflexivity|]. simpl.
  destruct (name_eqb_spec a b) as [->|Hne]; [exfalso; apply H; now left|]. simpl. f_equal. apply IH.
  intros Hin. apply H. now right.
Qed.
Lemma dedupn_nodup_id l : NoDup l -> dedupn l = l.
Proof.
  induction l as [|a l IH]; intros H; [reflexivity|]. inversion H as [|x xs Hx Hxs]; subst. simpl.
  rewrite (IH Hxs). f_equal. now apply filter_notin.
Qed.

Lemma In_sort_asc l q : In q (sort_asc l) <-> In q l.
Proof.
  unfold sort_asc. induction l as [|a l IH]; simpl; [tauto|].
  rewrite In_insert_by, IH. intuition.
Qed.

Section Chains.
  Variable r : rep.
  Hypothesis Hinv : sinv r.

  Fixpoint fchain (n : nat) (s t : name) : Prop :=
    match n with 0 => s = t | S n' => exists u, In u (faces r s) /\ fchain n' u t end.
  Fixpoint cchain (n : nat) (s t : name) : Prop :=
    match n with 0 => s = t | S n' => exists u, In u (cofaces r s) /\ cchain n' u t end.

  Lemma fchain_snoc n : forall s t v, fchain n s v -> In t (faces r v) -> fchain (S n) s t.
  Proof.
    induction n as [|n IH]; intros s t v H Ht; simpl in *.
    - subst v. exists t. split; [exact Ht | reflexivity].
    - destruct H as (u & Hu & H). exists u. split; [exact Hu|]. apply (IH u t v H Ht).
  Qed.
  Lemma cchain_snoc n : forall s t v, cchain n s v -> In t (cofaces r v) -> cchain (S n) s t.
  Proof.
    induction n as [|n IH]; intros s t v H Ht; simpl in *.
    - subst v. exists t. split; [exact Ht | reflexivity].
    - destruct H as (u & Hu & H). exists u. split; [exact Hu|]. apply (IH u t v H Ht).
  Qed.

  Theorem chain_duality n : forall s t, fchain n s t <-> cchain n t s.
  Proof.
    induction n as [|n IH]; intros s t; simpl; [split; congruence|]. split.
    - intros (u & Hu & H). apply IH in H. apply (cchain_snoc n t s u H).
      now apply (cofaces_inverse_of_faces r Hinv s u).
    - intros (u & Hu & H). apply IH in H. apply (fchain_snoc n s t u H).
      now apply (cofaces_inverse_of_faces r Hinv u t).
  Qed.

  Lemma fchain_order n : forall s t k is, assoc s (r_simp r) = Some (k, is) -> fchain n s t ->
    n <= k /\ exists it, assoc t (r_simp r) = Some (k - n, it).
  Proof.
    induction n as [|n IH]; intros s t k is As H; simpl in H.
    - subst t. split; [lia|]. rewrite Nat.sub_0_r. eauto.
    - destruct H as (u & Hu & H). destruct k as [|k']; [unfold faces in Hu; rewrite As in Hu; destruct Hu|].
      destruct (face_is_simplex r Hinv s u k' is As Hu) as (iu & Au).
      destruct (IH u t k' iu Au H) as (Hle & it & At). split; [lia|]. exists it. now replace (S k' - S n) with (k' - n) by lia.
  Qed.

  Lemma closure_levels_spec k : forall cur t,
    (exists j, j <= k /\ exists s0, In s0 cur /\ fchain j s0 t) <-> In t (concat (closure_levels r k cur)).
  Proof.
    induction k as [|k IH]; intros cur t; simpl.
    - rewrite app_nil_r. split.
      + intros (j & Hj & s0 & Hs0 & H). assert (j = 0) by lia. subst j. simpl in H. now subst.
      + intros H. exists 0. split; [lia|]. exists t. split; [exact H | reflexivity].
    - rewrite in_app_iff, <- IH. split.
      + intros (j & Hj & s0 & Hs0 & H). destruct j as [|j].
        * left. simpl in H. now subst.
        * right. simpl in H. destruct H as (u & Hu & H). exists j. split; [lia|]. exists u. split; [|exact H].
          apply (proj2 (In_dedupn _ _)). apply in_flat_map. eauto.
      + intros [H|(j & Hj & u & Hu & H)].
        * exists 0. split; [lia|]. exists t. split; [exact H | reflexivity].
        * apply (proj1 (In_dedupn _ _)) in Hu. apply in_flat_map in Hu. destruct Hu as (s0 & Hs0 & Hu).
          exists (S j). split; [lia|]. exists s0. split; [exact Hs0|]. simpl. eauto.
  Qed.

  Theorem closureOf_spec s k is rev L : assoc s (r_simp r) = Some (k, is) -> closureOf r s rev false = Ok L ->
    forall t, In t L <-> exists j, fchain j s t.
  Proof.
    intros As H t. unfold closureOf, orderOf in H. rewrite As in H. injection H as <-.
    assert (Hc : In t (concat (closure_levels r k [s])) <-> exists j, fchain j s t).
    { rewrite <- closure_levels_spec. split.
      - intros (j & _ & s0 & [<-|[]] & H). eauto.
      - intros (j & H). exists j. destruct (fchain_order j s t k is As H) as [Hle _]. split; [exact Hle|].
        exists s. split; [now left | exact H]. }
    destruct rev; [exact Hc|]. rewrite <- Hc. rewrite !in_concat. split; intros (l & Hl & Ht); exists l; split; auto.
    - now apply in_rev.
    - now apply in_rev in Hl.
  Qed.

  Lemma aux_spec f : forall s k is o c, assoc s (r_simp r) = Some (k, is) ->
    (In (o, c) (partOf_aux f r s k) <-> exists j, 1 <= j /\ j <= f /\ o = k + j /\ cchain j s c).
  Proof.
    induction f as [|f IH]; intros s k is o c As; simpl.
    - split; [tauto|]. intros (j & H1 & H2 & _). lia.
    - rewrite in_flat_map. split.
      + intros (c0 & Hc0 & H). destruct (coface_is_simplex r Hinv c0 s k is As Hc0) as (j0 & A0).
        destruct H as [E|H].
        * injection E as <- <-. exists 1. repeat split; try lia. simpl. eauto.
        * apply (IH c0 (S k) j0 o c A0) in H. destruct H as (j & H1 & H2 & -> & H).
          exists (S j). repeat split; try lia. simpl. eauto.
      + intros (j & H1 & H2 & -> & H). destruct j as [|j]; [lia|]. simpl in H. destruct H as (c0 & Hc0 & H).
        destruct (coface_is_simplex r Hinv c0 s k is As Hc0) as (j0 & A0).
        exists c0. split; [exact Hc0|]. destruct j as [|j].
        * simpl in H. subst c0. left. f_equal. lia.
        * right. apply (IH c0 (S k) j0 (k + S (S j)) c A0). exists (S j). repeat split; try lia. exact H.
  Qed.

  Lemma cchain_order n : forall s t k is, assoc s (r_simp r) = Some (k, is) -> cchain n s t ->
    exists it, assoc t (r_simp r) = Some (k + n, it).
  Proof.
    induction n as [|n IH]; intros s t k is As H; simpl in H.
    - subst t. rewrite Nat.add_0_r. eauto.
    - destruct H as (u & Hu & H). destruct (coface_is_simplex r Hinv u s k is As Hu) as (iu & Au).
      destruct (IH u t (S k) iu Au H) as (it & At). exists it. now replace (k + S n) with (S k + n) by lia.
  Qed.

  Theorem partOf_spec s k is rev L : assoc s (r_simp r) = Some (k, is) -> partOf r s rev false = Ok L ->
    forall t, In t L <-> exists j, cchain j s t.
  Proof.
    intros As H t. pose proof (s_p r Hinv) as [K Pm St Lr].
    unfold partOf, orderOf in H. rewrite As in H.
    remember (partOf_aux (S (r_nord r)) r s k) as A eqn:EA.
    assert (HA : (exists o, In (o, t) A) <-> exists j, 1 <= j /\ cchain j s t).
    { rewrite EA. split.
      - intros (o & Ho). apply (aux_spec _ s k is o t As) in Ho. destruct Ho as (j & H1 & _ & _ & Hc). eauto.
      - intros (j & H1 & Hc). exists (k + j). apply (aux_spec _ s k is (k + j) t As). exists j. repeat split; auto.
        destruct (cchain_order j s t k is As Hc) as (it & At). apply Pm in At. lia. }
    assert (HD : forall l : list (nat * name), In t (map snd l) <-> exists o, In (o, t) l).
    { intros l. rewrite in_map_iff. split; [intros ([o c] & E & Hi); simpl in E; subst; eauto | intros (o & Ho); exists (o, t); auto]. }
    assert (Hdd : (exists o, In (o, t) (dedup_on A)) <-> exists o, In (o, t) A).
    { split; [intros (o & Ho); exists o; now apply In_dedup_sub | intros (o & Ho); now apply (In_dedup_name A o t)]. }
    assert (Hsorted : forall srt, (forall q, In q srt <-> In q (dedup_on A)) ->
              (In t (map snd srt) <-> exists j, 1 <= j /\ cchain j s t)).
    { intros srt Hs. rewrite HD, <- HA, <- Hdd. split; intros (o & Ho); exists o; now apply Hs. }
    assert (Hfinal : forall body, (In t body <-> exists j, 1 <= j /\ cchain j s t) ->
              forall L0, (forall x, In x L0 <-> x = s \/ In x body) -> (In t L0 <-> exists j, cchain j s t)).
    { intros body Hb L0 HL. rewrite HL, Hb. split.
      - intros [->|(j & _ & Hc)]; [exists 0; reflexivity | eauto].
      - intros ([|j] & Hc); [left; simpl in Hc; congruence | right; exists (S j); split; [lia | exact Hc]]. }
    destruct rev; injection H as <-.
    - apply (Hfinal (map snd (sort_desc (dedup_on A)))).
      + apply Hsorted. intros q. apply In_sort_desc.
      + intros x. rewrite in_app_iff. simpl. intuition.
    - apply (Hfinal (map snd (sort_asc (dedup_on A)))).
      + apply Hsorted. intros q. apply In_sort_asc.
      + intros x. simpl. intuition.
  Qed.

  Theorem closure_star_duality s t ks is kt it rs rt Ls Lt :
    assoc s (r_simp r) = Some (ks, is) -> assoc t (r_simp r) = Some (kt, it) ->
    closureOf r s rs false = Ok Ls -> partOf r t rt false = Ok Lt ->
    (In t Ls <-> In s Lt).
  Proof.
    intros As At Hs Ht. rewrite (closureOf_spec s ks is rs Ls As Hs t), (partOf_spec t kt it rt Lt At Ht s).
    split; intros (j & H); exists j; now apply chain_duality.
  Qed.
End Chains.
