(* FoldRes.v -- folds over a list that thread a state and stop computing at the first exception: the
   shape of every loop of the library that calls a mutator per element. *)
From Coq Require Import List.
From SV Require Import Rep.
Import ListNotations.

Definition lift_res {S A X} (f : S -> A -> X -> S * res A) (acc : S * res A) (x : X) : S * res A :=
  match acc with (s, Raise e) => (s, Raise e) | (s, Ok a) => f s a x end.

Lemma fold_res_raise {S A X} (f : S -> A -> X -> S * res A) L s e :
  fold_left (lift_res f) L (s, Raise e) = (s, Raise e).
Proof. induction L; simpl; auto. Qed.

(* I relates the elements already visited, the state and the value; Q is what is known of a state in which
   a step raised *)
Lemma fold_res_gen {S A X} (f : S -> A -> X -> S * res A) (I : list X -> S -> A -> Prop) (Q : S -> exn -> Prop) L :
  (forall done s a x, In x L -> I done s a ->
     match f s a x with (s', Ok a') => I (done ++ [x]) s' a' | (s', Raise e) => Q s' e end) ->
  forall done s a, I done s a ->
     match fold_left (lift_res f) L (s, Ok a) with (s', Ok a') => I (done ++ L) s' a' | (s', Raise e) => Q s' e end.
Proof.
  intros Hstep.
  assert (G : forall L', incl L' L -> forall done s a, I done s a ->
            match fold_left (lift_res f) L' (s, Ok a) with (s', Ok a') => I (done ++ L') s' a' | (s', Raise e) => Q s' e end).
  { induction L' as [|x L' IH]; intros Hi done s a HI; simpl.
    - now rewrite app_nil_r.
    - specialize (Hstep done s a x (Hi x (or_introl eq_refl)) HI). destruct (f s a x) as [s1 [a1|e]].
      + replace (done ++ x :: L') with ((done ++ [x]) ++ L') by (now rewrite <- app_assoc).
        apply IH; [intros y Hy; apply Hi; now right | exact Hstep].
      + now rewrite fold_res_raise. }
  apply G, incl_refl.
Qed.

Lemma fold_res_inv {S A X} (f : S -> A -> X -> S * res A) (I : list X -> S -> A -> Prop) L :
  (forall done s a x s' a', In x L -> I done s a -> f s a x = (s', Ok a') -> I (done ++ [x]) s' a') ->
  forall done s a s' a', I done s a -> fold_left (lift_res f) L (s, Ok a) = (s', Ok a') -> I (done ++ L) s' a'.
Proof.
  intros Hstep done s a s' a' HI H.
  assert (Hs : forall d s0 a0 x, In x L -> I d s0 a0 ->
            match f s0 a0 x with (s1, Ok a1) => I (d ++ [x]) s1 a1 | (_, Raise _) => True end).
  { intros d s0 a0 x Hx H0. specialize (Hstep d s0 a0 x). destruct (f s0 a0 x) as [s1 [a1|e]]; auto. }
  pose proof (fold_res_gen f I (fun _ _ => True) L Hs done s a HI) as G. now rewrite H in G.
Qed.

Lemma fold_res_total {S A X} (f : S -> A -> X -> S * res A) (I : list X -> S -> A -> Prop) L :
  (forall done s a x, In x L -> I done s a -> exists s' a', f s a x = (s', Ok a') /\ I (done ++ [x]) s' a') ->
  forall done s a, I done s a ->
  exists s' a', fold_left (lift_res f) L (s, Ok a) = (s', Ok a') /\ I (done ++ L) s' a'.
Proof.
  intros Hstep done s a HI.
  assert (Hs : forall d s0 a0 x, In x L -> I d s0 a0 ->
            match f s0 a0 x with (s1, Ok a1) => I (d ++ [x]) s1 a1 | (_, Raise _) => False end).
  { intros d s0 a0 x Hx H0. destruct (Hstep d s0 a0 x Hx H0) as (s1 & a1 & -> & H1). exact H1. }
  pose proof (fold_res_gen f I (fun _ _ => False) L Hs done s a HI) as G.
  destruct (fold_left (lift_res f) L (s, Ok a)) as [s' [a'|e]]; [eauto | destruct G].
Qed.

(* a step that is not written as a lift_res (one that returns its argument when that has raised, say): all
   that is used is that it leaves a raised state alone *)
Lemma fold_stops_raise {S A B} (step : S * res B -> A -> S * res B) :
  (forall s e a, step (s, Raise e) a = (s, Raise e)) ->
  forall l s e, fold_left step l (s, Raise e) = (s, Raise e).
Proof. intros Hr. induction l as [|a l IH]; intros s e; simpl; [reflexivity|]. now rewrite Hr. Qed.

Lemma fold_stops_inv {S A B} (I : S -> Prop) (step : S * res B -> A -> S * res B) :
  (forall s e a, step (s, Raise e) a = (s, Raise e)) ->
  (forall s u a s' x, I s -> step (s, Ok u) a = (s', x) -> I s') ->
  forall l s x s' x', I s -> fold_left step l (s, x) = (s', x') -> I s'.
Proof.
  intros Hr Hs. induction l as [|a l IH]; intros s x s' x' H E; simpl in E; [now injection E as <- _|].
  destruct x as [u|e].
  - destruct (step (s, Ok u) a) as [s1 x1] eqn:E1. eapply IH; [|exact E]. eapply Hs; eauto.
  - rewrite Hr in E. eapply IH; eauto.
Qed.

Lemma fold_res_keeps {S A B} (I : S -> Prop) (step : S -> A -> S * res B) (l : list A) :
  (forall s a s' x, I s -> step s a = (s', x) -> I s') ->
  forall s (x0 : res B) s' x, I s ->
  fold_left (lift_res (fun s1 _ a => step s1 a)) l (s, x0) = (s', x) -> I s'.
Proof.
  intros Hs. refine (fold_stops_inv I (lift_res (fun s1 _ a => step s1 a)) _ _ l); [reflexivity|].
  intros s u a. apply Hs.
Qed.
