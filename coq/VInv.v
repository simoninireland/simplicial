(* VInv.v -- the vertex-set reading: in a complex built by in-contract operations a simplex IS its
   basis -- a simplex of order k has a basis of exactly k+1 points and no two simplices share a
   basis (C01).  Kept by addSimplex whenever the faces offered span exactly |fs| points not already
   spanned by a simplex, by relabelSimplex and by deleteSimplex.  Plain Coq. *)
From Coq Require Import String ZArith Bool Arith List Lia.
From SV Require Import Names NamesFacts ListFacts Rep Fresh Complex Atomic RepInv Shapes Incidence AddEffect
                       DelEffect StarOrder Closed ClosedReach RelabelProofs RelabelAll Duality DeleteEffect AddBasis DelBasis BasisInv.
Import ListNotations.
Open Scope nat_scope.

Definition sameset (a b : list name) : Prop := forall x, In x a <-> In x b.

Record vinv (r : rep) : Prop := {
  v_b : bcinv r;
  v_card : forall t k j, assoc t (r_simp r) = Some (k, j) -> length (basisOf r t) = S k;
  v_uniq : forall t u, containsSimplex r t = true -> containsSimplex r u = true ->
           sameset (basisOf r t) (basisOf r u) -> t = u }.

Lemma vinv_bcinv r : vinv r -> bcinv r.
Proof. apply v_b. Qed.
Lemma vinv_cinv r : vinv r -> cinv r.
Proof. intros H. apply bcinv_cinv, v_b, H. Qed.
Lemma vinv_sinv r : vinv r -> sinv r.
Proof. intros H. apply bcinv_sinv, v_b, H. Qed.
Lemma vinv_pinv r : vinv r -> pinv r.
Proof. intros H. apply bcinv_pinv, v_b, H. Qed.

Lemma sameset_refl a : sameset a a.
Proof. intros x. reflexivity. Qed.
Lemma sameset_sym a b : sameset a b -> sameset b a.
Proof. intros H x. symmetry. apply H. Qed.
Lemma sameset_trans a b c : sameset a b -> sameset b c -> sameset a c.
Proof. intros H1 H2 x. rewrite (H1 x). apply H2. Qed.

Lemma vinv_empty uid : vinv (empty_rep uid).
Proof.
  constructor; [apply bcinv_empty| |].
  - intros t k j H. discriminate.
  - intros t u H. discriminate.
Qed.

Lemma vinv_same_obs r r' : same_obs r r' -> vinv r -> vinv r'.
Proof.
  intros Hs [B C U]. destruct (same_obs_queries r r' Hs) as (_ & _ & _ & _ & Qb & Qc & _).
  pose proof Hs as (_ & _ & Hsimp & _).
  constructor; [eapply bcinv_same_obs; eauto| |].
  - intros t k j H. rewrite Hsimp in H. rewrite Qb. eapply C; eauto.
  - intros t u Ht Hu Hss. rewrite Qc in Ht, Hu. apply U; auto. intros x. rewrite <- !Qb. apply Hss.
Qed.

Lemma basis_nonempty r t : vinv r -> containsSimplex r t = true -> exists p, In p (basisOf r t).
Proof.
  intros Hv Ct. apply containsSimplex_assoc in Ct. destruct Ct as (k & j & At). pose proof (v_card r Hv t k j At) as L.
  destruct (basisOf r t) as [|p l]; [discriminate | exists p; now left].
Qed.

(* what the faces offered to addSimplex must look like for the vertex-set reading to survive: they
   span exactly |fs| points, and no simplex spans those points already *)
Definition span (r : rep) (fs : list name) (B : list name) : Prop :=
  NoDup B /\ forall p, In p B <-> exists f, In f fs /\ In p (basisOf r f).
Definition good_faces (r : rep) (fs : list name) : Prop :=
  fs = [] \/ forall B, span r fs B ->
             length B = length fs /\ forall t, containsSimplex r t = true -> ~ sameset (basisOf r t) B.

Theorem addSimplex_vinv r fs id attr r' x : vinv r -> good_faces r fs -> addSimplex r fs id attr = (r', x) -> vinv r'.
Proof.
  intros Hv Hg H. destruct x as [n|e].
  2: { apply addSimplex_atomic in H. destruct H as [Hs _]. eapply vinv_same_obs; eauto. }
  pose proof (vinv_sinv r Hv) as HS.
  assert (B' : bcinv r') by (eapply addSimplex_bcinv; eauto using vinv_bcinv).
  destruct (addSimplex_effect r fs id attr r' n HS H) as (Hnew & _ & Ho & _ & Hold & Hall).
  destruct (addSimplex_new_basis r fs id attr r' n HS H) as [_ Hnb].
  assert (Hbn : forall t, containsSimplex r t = true -> basisOf r' t = basisOf r t) by (intros t Ht; apply Hold, Ht).
  assert (Hn : length (basisOf r' n) = S (length fs - 1) /\
               forall u, containsSimplex r u = true -> ~ sameset (basisOf r u) (basisOf r' n)).
  { destruct Hnb as [[-> Hb]|[Hl Hb]].
    - (* a new point: its basis is itself, which no old simplex has in its basis *)
      rewrite Hb. split; [reflexivity|]. intros u Hu Hss.
      destruct (basis_in_points r u n (vinv_pinv r Hv)) as (i & Ai); [apply Hss; now left|].
      rewrite (assoc_contains r n _ _ Ai) in Hnew. discriminate.
    - destruct Hg as [->|Hg]; [simpl in Hl; lia|].
      destruct (Hg (basisOf r' n)) as [Hlen Hno]; [split; [apply basis_nodup, bcinv_pinv, B' | exact Hb]|].
      split; [lia | exact Hno]. }
  destruct Hn as [Hcard Hfresh].
  constructor; [exact B'| |].
  - intros t k j At. pose proof (assoc_contains r' t _ _ At) as Hc'. rewrite Hall in Hc'.
    destruct (name_eqb_spec t n) as [->|Hne].
    + unfold orderOf in Ho. rewrite At in Ho. injection Ho as ->. exact Hcard.
    + rewrite orb_false_r in Hc'. rewrite (Hbn t Hc'). destruct (Hold t Hc') as (O & _).
      unfold orderOf in O. rewrite At in O.
      destruct (assoc t (r_simp r)) as [[k2 i2]|] eqn:A2; [|discriminate]. injection O as <-. eapply v_card; eauto.
  - intros t u Ht Hu Hss. rewrite Hall in Ht, Hu.
    destruct (name_eqb_spec t n) as [->|Hnt]; destruct (name_eqb_spec u n) as [->|Hnu]; rewrite ?orb_false_r in *.
    + reflexivity.
    + destruct (Hfresh u Hu). rewrite <- (Hbn u Hu). now apply sameset_sym.
    + destruct (Hfresh t Ht). now rewrite <- (Hbn t Ht).
    + apply (v_uniq r Hv); auto. now rewrite <- (Hbn t Ht), <- (Hbn u Hu).
Qed.

Lemma incl_map_inj {A B} (f : A -> B) (D : A -> Prop) (a b : list A) :
  (forall x y, D x -> D y -> f x = f y -> x = y) -> (forall x, In x a -> D x) -> (forall x, In x b -> D x) ->
  incl (map f a) (map f b) -> incl a b.
Proof.
  intros Hinj Da Db Hi x Hx. assert (Hfx : In (f x) (map f b)) by (apply Hi, in_map, Hx).
  apply in_map_iff in Hfx. destruct Hfx as (y & E & Hy). now rewrite <- (Hinj y x (Db y Hy) (Da x Hx) E).
Qed.

Lemma renamed_vinv phi r r' : renamed_by phi r r' -> bcinv r' ->
  (forall a b, containsSimplex r a = true -> containsSimplex r b = true -> phi a = phi b -> a = b) ->
  vinv r -> vinv r'.
Proof.
  intros Hren B' Hinj Hv. pose proof (vinv_pinv r Hv) as P. pose proof (bcinv_pinv r' B') as P'.
  assert (Hpre : forall t k j, assoc t (r_simp r') = Some (k, j) ->
            exists t0, t = phi t0 /\ assoc t0 (r_simp r) = Some (k, j) /\ basisOf r' t = map phi (basisOf r t0)).
  { intros t k j At. destruct (renamed_preimage phi r r' P P' Hren t k j At) as (t0 & -> & A0). exists t0.
    now destruct (renamed_structure phi r r' P P' Hren t0 k j A0) as (_ & _ & _ & Ba). }
  assert (Hpt : forall t p, In p (basisOf r t) -> containsSimplex r p = true).
  { intros t p Hp. destruct (basis_in_points r t p P Hp) as (i & Ai). exact (assoc_contains r p _ _ Ai). }
  constructor; [exact B'| |].
  - intros t k j At. destruct (Hpre t k j At) as (t0 & _ & A0 & ->). rewrite map_length. eapply v_card; eauto.
  - intros t u Ht Hu Hss. apply containsSimplex_assoc in Ht, Hu. destruct Ht as (kt & jt & At), Hu as (ku & ju & Au).
    destruct (Hpre t kt jt At) as (t0 & -> & A0 & Bt). destruct (Hpre u ku ju Au) as (u0 & -> & A1 & Bu).
    f_equal. apply (v_uniq r Hv); [eapply assoc_contains; eauto | eapply assoc_contains; eauto|].
    rewrite Bt, Bu in Hss.
    intros p. split; apply (incl_map_inj phi _ _ _ Hinj (Hpt _) (Hpt _)); intros x Hx; now apply Hss.
Qed.

Theorem relabelSimplex_vinv r s q r' x : vinv r -> relabelSimplex r s q = (r', x) -> vinv r'.
Proof.
  intros Hv H. destruct x as [[]|e].
  2: { apply relabelSimplex_atomic in H. now destruct H as [-> _]. }
  apply (renamed_vinv (ren1 s q) r r'); [| eapply relabelSimplex_bcinv; eauto using vinv_bcinv | | exact Hv].
  - exact (relabelSimplex_renames r s q r' (vinv_pinv r Hv) H).
  - (* ren1 s q is injective on the names of r, q not being one of them *)
    assert (Hq : containsSimplex r q = false).
    { unfold relabelSimplex in H. destruct (containsSimplex r q); [discriminate | reflexivity]. }
    intros a b Ha Hb. unfold ren1.
    destruct (name_eqb_spec a s) as [->|Has]; destruct (name_eqb_spec b s) as [->|Hbs]; auto.
    + intros <-. congruence.
    + intros ->. congruence.
Qed.

Section Subcomplex.
  Variables r r' : rep.
  Hypothesis Hv : vinv r.
  Hypothesis Hb' : bcinv r'.
  Hypothesis Hsub : forall s, containsSimplex r' s = true ->
    containsSimplex r s = true /\ orderOf r' s = orderOf r s /\ forall t, In t (faces r' s) <-> In t (faces r s).

  Lemma sub_assoc s k j : assoc s (r_simp r') = Some (k, j) -> exists i, assoc s (r_simp r) = Some (k, i).
  Proof.
    intros As. destruct (Hsub s (assoc_contains r' s _ _ As)) as (Cr & Ho & _). unfold orderOf in Ho. rewrite As in Ho.
    destruct (assoc s (r_simp r)) as [[k0 i]|]; [|discriminate]. injection Ho as <-. eauto.
  Qed.

  Lemma sub_basis : forall k s j, assoc s (r_simp r') = Some (k, j) -> sameset (basisOf r' s) (basisOf r s).
  Proof.
    induction k as [|k IH]; intros s j As; destruct (sub_assoc s _ j As) as (i & Ar).
    - destruct (b_b r' Hb' s 0 j As) as [E' _]. destruct (b_b r (v_b r Hv) s 0 i Ar) as [E _].
      rewrite E', E by reflexivity. apply sameset_refl.
    - destruct (b_b r' Hb' s (S k) j As) as [_ E']. destruct (b_b r (v_b r Hv) s (S k) i Ar) as [_ E].
      destruct (Hsub s (assoc_contains r' s _ _ As)) as (_ & _ & Hf).
      intros p. rewrite E', E by lia. apply ex_in_iff; [exact Hf|]. intros u Hu.
      destruct (face_is_simplex r' (bcinv_sinv r' Hb') s u k j As Hu) as (iu & Au). exact (IH u iu Au p).
  Qed.

  Theorem vinv_subcomplex : vinv r' /\ forall s, containsSimplex r' s = true -> sameset (basisOf r' s) (basisOf r s).
  Proof.
    assert (G : forall s, containsSimplex r' s = true -> sameset (basisOf r' s) (basisOf r s)).
    { intros s C. apply containsSimplex_assoc in C. destruct C as (k & j & As). exact (sub_basis k s j As). }
    split; [|exact G]. constructor; [exact Hb'| |].
    - intros t k j At. destruct (sub_assoc t k j At) as (i & Ar). rewrite <- (v_card r Hv t k i Ar).
      apply NoDup_same_length; [apply basis_nodup, bcinv_pinv, Hb' | apply basis_nodup, vinv_pinv, Hv|].
      exact (sub_basis k t j At).
    - intros t u Ct Cu Hss. destruct (Hsub t Ct) as (Crt & _). destruct (Hsub u Cu) as (Cru & _).
      apply (v_uniq r Hv); auto. intros z. rewrite <- (G t Ct z), <- (G u Cu z). apply Hss.
  Qed.
End Subcomplex.

Lemma basis_member_has_coface r t k j s : bcinv r -> assoc t (r_simp r) = Some (k, j) -> t <> s ->
  In s (basisOf r t) -> exists u, In u (cofaces r s).
Proof.
  intros Bc At Hne Hin.
  apply (basis_is_closure_points r Bc k t j At s) in Hin.
  apply (chain_duality r (bcinv_sinv r Bc) k t s) in Hin. destruct k as [|k]; [simpl in Hin; congruence|].
  simpl in Hin. destruct Hin as (u & Hu & _). eauto.
Qed.

Lemma fold_delete_any (I : rep -> Prop) :
  (forall r, I r -> sinv r) ->
  (forall r s r' x, I r -> cofaces r s = [] -> forceDeleteSimplex r s = (r', x) -> I r') ->
  forall (L : list name) rc,
  I rc -> NoDup L -> (forall t, In t L -> containsSimplex rc t = true) ->
  (forall i t u, nth_error L i = Some t -> In u (cofaces rc t) -> exists j, j < i /\ nth_error L j = Some u) ->
  forall r' x, fold_left del_step L (rc, Ok tt) = (r', x) -> I r'.
Proof. exact (fold_delete_inv I). Qed.

(* what deleteSimplex leaves is a sub-complex: the survivors keep their faces, hence their points *)
Theorem deleteSimplex_bases r s r' x : vinv r -> deleteSimplex r s = (r', x) ->
  vinv r' /\ forall t, containsSimplex r' t = true -> sameset (basisOf r' t) (basisOf r t).
Proof.
  intros Hv H. destruct (containsSimplex r s) eqn:Cs.
  - apply (vinv_subcomplex r r' Hv (deleteSimplex_bcinv r s r' x (vinv_bcinv r Hv) H)).
    destruct (deleteSimplex_effect r s r' x (vinv_sinv r Hv) Cs H) as (_ & _ & Hm & Hf).
    intros t Ht. split; [apply Hm, Ht | apply Hf, Ht].
  - unfold deleteSimplex, partOf, orderOf in H. unfold containsSimplex in Cs.
    destruct (assoc s (r_simp r)); [discriminate|]. injection H as <- _. split; [exact Hv|]. intros t _. apply sameset_refl.
Qed.

Theorem deleteSimplex_vinv r s r' x : vinv r -> deleteSimplex r s = (r', x) -> vinv r'.
Proof. intros Hv H. exact (proj1 (deleteSimplex_bases r s r' x Hv H)). Qed.
