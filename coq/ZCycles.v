(* ZCycles.v -- the column labels carried by _reduceBoundaries: at every stage each column of the
   matrix is an injective additive image of the mod-2 sum of the original columns named by its
   label list, so a zero column of the reduced matrix is labelled by a cycle (C07).  Plain Coq. *)
From Coq Require Import String ZArith Bool Arith List Lia.
From SV Require Import Homology ListMat.
Import ListNotations.
Open Scope nat_scope.

Section Cycles.
  Variables (L : Type) (rb cb : nat).
  Variable val : L -> nat -> bool.          (* the original column a label stands for *)

  Definition vec := nat -> bool.
  Definition vsum (l : list L) : vec := fun i => fold_right (fun s acc => xorb (val s i) acc) false l.

  Lemma vsum_app l1 l2 i : vsum (l1 ++ l2) i = xorb (vsum l1 i) (vsum l2 i).
  Proof.
    unfold vsum. induction l1 as [|s t IH]; simpl; [now destruct (fold_right _ _ l2)|].
    rewrite IH. now rewrite xorb_assoc.
  Qed.

  (* the accumulated row operations, as a map on column vectors *)
  Record rowmap (g : vec -> vec) : Prop := {
    g_ext : forall a b, (forall t, t < rb -> a t = b t) -> forall i, i < rb -> g a i = g b i;
    g_add : forall a b i, i < rb -> g (fun t => xorb (a t) (b t)) i = xorb (g a i) (g b i);
    g_inj : forall a, (forall i, i < rb -> g a i = false) -> forall i, i < rb -> a i = false }.

  Definition linv (M : bmat) (cls : list (list L)) : Prop :=
    length cls = cb /\
    exists g, rowmap g /\ forall i j, i < rb -> j < cb -> entry M i j = g (vsum (nth j cls [])) i.

  Lemma rowmap_id : rowmap (fun v => v).
  Proof. constructor; auto. Qed.

  Lemma rowmap_rsw g x k : x < rb -> k < rb -> rowmap g -> rowmap (fun v i => g v (sw x k i)).
  Proof.
    intros Hx Hk [Gext Gadd Ginj]. constructor.
    - intros a b Hab i Hi. apply Gext; [exact Hab | now apply sw_range].
    - intros a b i Hi. apply Gadd. now apply sw_range.
    - intros a Hz. apply Ginj. intros i Hi. rewrite <- (sw_invol x k i). apply Hz. now apply sw_range.
  Qed.

  Lemma rowmap_radd g x (c : nat -> bool) : x < rb -> rowmap g ->
    rowmap (fun v i => if (x <? i) && c i then xorb (g v i) (g v x) else g v i).
  Proof.
    intros Hx [Gext Gadd Ginj]. constructor.
    - intros a b Hab i Hi. now rewrite (Gext a b Hab i Hi), (Gext a b Hab x Hx).
    - intros a b i Hi. rewrite !Gadd by assumption.
      destruct ((x <? i) && c i); [|reflexivity]. now destruct (g a i), (g b i), (g a x), (g b x).
    - intros a Hz. apply Ginj. intros i Hi.
      (* row x is untouched, so g a x = false, and then every row is *)
      pose proof (Hz x Hx) as Hxx. rewrite Nat.ltb_irrefl in Hxx. simpl in Hxx.
      specialize (Hz i Hi). rewrite Hxx in Hz. now destruct ((x <? i) && c i); rewrite ?xorb_false_r in Hz.
  Qed.

  Lemma step_linv x k l M (cls : list (list L)) :
    wfm rb cb M -> x <= k < rb -> x <= l < cb -> linv M cls ->
    linv (fst (reduce_step x k l M cls)) (snd (reduce_step x k l M cls)).
  Proof.
    intros HM Hk Hl [Hlen [g [Hg Hinv]]]. split; [now rewrite step_length|].
    set (f2 := csw x l (rsw x k (entry M))).
    set (g3 := fun (v : vec) i => if (x <? i) && f2 i x then xorb (g v (sw x k i)) (g v (sw x k x)) else g v (sw x k i)).
    assert (Hg3 : rowmap g3) by (apply (rowmap_radd (fun v i => g v (sw x k i))); [lia | apply rowmap_rsw; [lia | lia | exact Hg]]).
    (* the matrix before the column additions, through the old invariant *)
    assert (Hf3 : forall i j, i < rb -> j < cb -> radd x f2 i j = g3 (vsum (nth (sw x l j) cls [])) i).
    { intros i j Hi Hj. unfold radd, g3. destruct ((x <? i) && f2 i x); unfold f2, csw, rsw;
        now rewrite !Hinv by (apply sw_range; lia). }
    exists g3. split; [exact Hg3|]. intros i j Hi Hj.
    rewrite (step_entries rb cb), (step_labels rb cb) by assumption.
    unfold stepf, cadd. fold f2. destruct ((x <? j) && radd x f2 x j).
    - rewrite !Hf3 by lia. destruct Hg3 as [Gext Gadd _].
      rewrite <- Gadd by exact Hi. apply Gext; [|exact Hi]. intros t _. now rewrite vsum_app.
    - now apply Hf3.
  Qed.

  Lemma reduce_linv M (cls : list (list L)) : wfm rb cb M -> linv M cls ->
    linv (fst (reduceB rb cb M cls)) (snd (reduceB rb cb M cls)).
  Proof.
    intros HM Hinv. apply (reduce_keeps rb cb L linv); auto. intros. now apply step_linv.
  Qed.

  (* a zero column of the reduced matrix is labelled by a cycle: the mod-2 sum of the original
     columns its label list names is zero *)
  Theorem zero_column_is_cycle M (cls : list (list L)) j :
    wfm rb cb M -> length cls = cb ->
    (forall i t, i < rb -> t < cb -> entry M i t = vsum (nth t cls []) i) ->
    j < cb ->
    let '(D, cls') := reduceB rb cb M cls in
    (forall i, i < rb -> entry D i j = false) -> forall i, i < rb -> vsum (nth j cls' []) i = false.
  Proof.
    intros HM Hlen H0 Hj.
    assert (Hinv0 : linv M cls) by (split; [exact Hlen | exists (fun v => v); split; [apply rowmap_id | exact H0]]).
    destruct (reduce_linv M cls HM Hinv0) as [_ [g [[_ _ Ginj] Hinv]]].
    destruct (reduceB rb cb M cls) as [D cls']. simpl in Hinv.
    intros Hz. apply Ginj. intros i Hi. rewrite <- Hinv by assumption. now apply Hz.
  Qed.
End Cycles.
