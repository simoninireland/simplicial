(* FlagExt.v -- flagComplex / growFlagComplex only ever ADD simplices of order >= 2 (C11): the flag
   complex of K has exactly K's points and edges and contains K with K's names, orders and faces.
   The sweep `_completePotentialSimplices` is gone through once, for any property its adds keep
   (cps_order_keeps) and any relation between start and end (cps_loop_rel); FlagSound.v and CpsGen.v
   instantiate the same two statements.  Plain Coq. *)
From Coq Require Import String ZArith Bool Arith List Lia.
From SV Require Import Names NamesFacts ListFacts Rep Fresh Complex Atomic RepInv Shapes Incidence AddEffect CopyFaithful Homology Closed.
Import ListNotations.
Open Scope nat_scope.

Lemma combs_length {A} (k : nat) : forall (l : list A) c, In c (combs k l) -> length c = k.
Proof.
  induction k as [|k IH]; intros l c H.
  - destruct l; simpl in H; destruct H as [H|H]; try (subst c; reflexivity); destruct H.
  - induction l as [|x t IHl]; simpl in H; [destruct H|]. apply in_app_or in H. destruct H as [H|H].
    + apply in_map_iff in H. destruct H as (c0 & <- & Hc0). simpl. f_equal. now apply (IH t).
    + now apply IHl.
Qed.

Record ext2 (r r' : rep) : Prop := {
  e_inv : sinv r';
  e_old : forall s, containsSimplex r s = true ->
          containsSimplex r' s = true /\ orderOf r' s = orderOf r s /\ faces r' s = faces r s;
  e_new : forall s, containsSimplex r' s = true -> containsSimplex r s = true \/ exists k, orderOf r' s = Ok k /\ 2 <= k }.

Lemma ext2_refl r : sinv r -> ext2 r r.
Proof. intros H. constructor; auto. Qed.

Lemma ext2_trans a b c : ext2 a b -> ext2 b c -> ext2 a c.
Proof.
  intros [I1 O1 N1] [I2 O2 N2]. constructor; [exact I2| |].
  - intros s Hs. destruct (O1 s Hs) as (C1 & Or1 & F1). destruct (O2 s C1) as (C2 & Or2 & F2).
    split; [exact C2|]. split; congruence.
  - intros s Hs. destruct (N2 s Hs) as [Hb|Hk]; [|now right].
    destruct (N1 s Hb) as [Ha|(k & Hk & Hk2)]; [now left|]. right. exists k. split; [|exact Hk2].
    destruct (O2 s Hb) as (_ & Or2 & _). congruence.
Qed.

Lemma ext2_assoc r r' s k j : ext2 r r' -> assoc s (r_simp r) = Some (k, j) -> exists j', assoc s (r_simp r') = Some (k, j').
Proof.
  intros E A. apply orderOf_assoc. destruct (e_old r r' E s (assoc_contains r s k j A)) as (_ & O & _).
  rewrite O. apply orderOf_assoc. now exists j.
Qed.

Lemma ext2_same_obs r r' : same_obs r r' -> sinv r -> ext2 r r'.
Proof.
  intros Hs HS. destruct (same_obs_queries r r' Hs) as (Qo & _ & Qf & _ & _ & Qc & _).
  constructor; [eapply sinv_same_obs; eauto| |].
  - intros s H. rewrite Qc, Qo, Qf. auto.
  - intros s H. left. now rewrite <- Qc.
Qed.

Lemma ext2_addSimplex r fs r' y : sinv r -> 3 <= length fs -> addSimplex r fs None None = (r', y) -> ext2 r r'.
Proof.
  intros HS Hl H. destruct y as [n|e]; [|apply addSimplex_atomic in H; apply ext2_same_obs; tauto].
  destruct (addSimplex_effect r fs None None r' n HS H) as (_ & _ & Ho & _ & Hold & Hall).
  constructor.
  - eapply addSimplex_sinv; eauto.
  - intros s Hs. destruct (Hold s Hs) as (O & _ & F & _). split; [rewrite Hall, Hs; reflexivity | auto].
  - intros s Hs. rewrite Hall in Hs. apply orb_prop in Hs. destruct Hs as [Hs|Hs]; [now left|].
    apply name_eqb_eq in Hs. subst s. right. exists (length fs - 1). split; [exact Ho | lia].
Qed.

(* the only step of the fold that changes the complex is the addSimplex made after the combination
   passed `_isClosed` and `simplexWithFaces` found nothing *)
Lemma cps_order_keeps (J : rep -> Prop) r k newk1 nss maxk r' nss' maxk' x :
  J r ->
  (forall ra fs rb y, J ra -> In fs (combs (S k) (seq 0 (length (simplicesOfOrder r (k - 1))))) ->
     isClosed (boundaryOperator r (k - 1)) fs = true ->
     c_simplexWithFaces ra (map (fun i => nth i (simplicesOfOrder ra (k - 1)) (NInt 0)) fs) = Ok None ->
     addSimplex ra (map (fun i => nth i (simplicesOfOrder ra (k - 1)) (NInt 0)) fs) None None = (rb, y) -> J rb) ->
  cps_order r k newk1 nss maxk = (r', nss', maxk', x) -> J r'.
Proof.
  intros J0 Jstep H. change (J (fst (fst (fst (r', nss', maxk', x))))). rewrite <- H. unfold cps_order.
  apply fold_left_keeps; [|exact J0].
  intros [[[ra nsa] ma] [u|e]] fs Hfs Ja; [|exact Ja].
  destruct (existsb _ fs); [|exact Ja]. destruct (isClosed _ fs) eqn:Ecl; [|exact Ja]. cbn [andb]. cbv zeta.
  destruct (c_simplexWithFaces ra _) as [[q|]|e] eqn:Eswf; try exact Ja.
  destruct (addSimplex ra _ None None) as [rb y] eqn:Eadd.
  assert (Jb : J rb) by (apply (Jstep ra fs rb y); assumption).
  destruct y as [s|e]; [destruct (indexOf rb s)|]; exact Jb.
Qed.

Section CpsLoop.
  Variable Q : rep -> Prop.
  Variable R : rep -> rep -> Prop.
  Hypothesis R_refl : forall r, Q r -> R r r.
  Hypothesis R_trans : forall a b c, R a b -> R b c -> R a c.
  Hypothesis order_rel : forall r k newk1 nss maxk r' nss' maxk' x, Q r -> 2 <= k ->
    cps_order r k newk1 nss maxk = (r', nss', maxk', x) -> Q r' /\ R r r'.

  Lemma cps_loop_rel fuel : forall k maxk r nss r' x, Q r -> 1 <= k ->
    cps_loop fuel k maxk r nss = (r', x) -> Q r' /\ R r r'.
  Proof.
    induction fuel as [|f IH]; intros k maxk r nss r' x HQ Hk H; simpl in H.
    - injection H as <- _. auto.
    - destruct (maxk + 1 <? k); [injection H as <- _; auto|].
      destruct (nss_get (k - 0) nss) as [[|i newk1]|]; try (apply (IH (S k) maxk r nss r' x HQ); [lia | exact H]).
      set (nss1 := match nss_get (S k) nss with Some _ => nss | None => nss ++ [(S k, [])] end) in H.
      destruct (cps_order r (S k) (i :: newk1) nss1 maxk) as [[[r1 nss'] maxk'] y] eqn:E.
      destruct (order_rel r (S k) _ _ _ r1 _ _ y HQ ltac:(lia) E) as [Q1 R1].
      destruct y as [u|e]; [|injection H as <- _; auto].
      destruct (IH (S k) maxk' r1 nss' r' x Q1 ltac:(lia) H) as [Q2 R2]. split; [exact Q2 | exact (R_trans r r1 r' R1 R2)].
  Qed.

  Theorem completePotentialSimplices_rel r nss r' x : Q r ->
    completePotentialSimplices r nss = (r', x) -> Q r' /\ R r r'.
  Proof.
    intros HQ H. unfold completePotentialSimplices in H. destruct nss as [|p t]; [injection H as <- _; auto|].
    apply (cps_loop_rel _ 1 _ r _ r' x HQ (le_n 1) H).
  Qed.

  Theorem growFlagComplex_rel r news r' x : Q r -> growFlagComplex r news = (r', x) -> Q r' /\ R r r'.
  Proof.
    intros HQ H. unfold growFlagComplex in H.
    match type of H with match ?X with _ => _ end = _ => destruct X as [nss|e] end.
    - exact (completePotentialSimplices_rel r nss r' x HQ H).
    - injection H as <- _. auto.
  Qed.
End CpsLoop.

Lemma cps_order_ext r k newk1 nss maxk r' nss' maxk' x : sinv r -> 2 <= k ->
  cps_order r k newk1 nss maxk = (r', nss', maxk', x) -> sinv r' /\ ext2 r r'.
Proof.
  intros HS Hk H. assert (E : ext2 r r'); [|split; [exact (e_inv r r' E) | exact E]].
  apply (cps_order_keeps (ext2 r) r k newk1 nss maxk r' nss' maxk' x); [now apply ext2_refl | | exact H].
  intros ra fs rb y Ea Hfs _ _ Hadd. apply (ext2_trans r ra rb Ea).
  refine (ext2_addSimplex ra _ rb y (e_inv r ra Ea) _ Hadd).
  rewrite map_length, (combs_length _ _ _ Hfs). lia.
Qed.

Theorem completePotentialSimplices_ext r nss r' x : sinv r ->
  completePotentialSimplices r nss = (r', x) -> ext2 r r'.
Proof. intros HS H. exact (proj2 (completePotentialSimplices_rel sinv ext2 ext2_refl ext2_trans cps_order_ext r nss r' x HS H)). Qed.

Theorem growFlagComplex_ext r news r' x : sinv r -> growFlagComplex r news = (r', x) -> ext2 r r'.
Proof. intros HS H. exact (proj2 (growFlagComplex_rel sinv ext2 ext2_refl ext2_trans cps_order_ext r news r' x HS H)). Qed.

Theorem flagComplex_contains_source hp src uid hp' r' :
  flagComplex hp src uid = (hp', r', Ok tt) ->
  sinv r' /\
  (forall s, In s (simplices src false) ->
     containsSimplex r' s = true /\ orderOf r' s = Ok (length (faces src s) - 1) /\
     forall t, In t (faces r' s) <-> In t (faces src s)) /\
  (forall s, containsSimplex r' s = true ->
     In s (simplices src false) \/ exists k, orderOf r' s = Ok k /\ 2 <= k).
Proof.
  intros H. unfold flagComplex in H.
  destruct (copy_new hp (view_of src) uid) as [[hp1 c] [[]|e]] eqn:E0; [|discriminate].
  destruct (completePotentialSimplices c (flag_seed c)) as [c' x] eqn:E1. injection H as <- <- ->.
  destruct (copy_faithful hp src uid hp1 c E0) as (Hinv & Hc & Hf).
  destruct (completePotentialSimplices_ext c (flag_seed c) c' (Ok tt) Hinv E1) as [I O N].
  split; [exact I|]. split.
  - intros s Hs. destruct (Hf s Hs) as [Ho Hfa].
    assert (Hcs : containsSimplex c s = true) by (rewrite Hc; now apply memn_In).
    destruct (O s Hcs) as (C' & O' & F'). split; [exact C'|]. split; [now rewrite O'|]. intros t. now rewrite F'.
  - intros s Hs. destruct (N s Hs) as [Hcs|Hk]; [left | now right]. rewrite Hc in Hcs. now apply memn_In.
Qed.

Lemma flagComplex_same_points hp src uid hp' r' p : cinv src -> flagComplex hp src uid = (hp', r', Ok tt) ->
  (orderOf r' p = Ok 0 <-> orderOf src p = Ok 0).
Proof.
  intros C H. destruct (flagComplex_contains_source hp src uid hp' r' H) as (_ & Hsrc & Hnew).
  pose proof (In_simplices_iff src p (s_p src (c_s src C))) as Hin.
  assert (E : In p (simplices src false) -> orderOf r' p = orderOf src p).
  { intros Hp. destruct (Hsrc p Hp) as (_ & O & _). rewrite O. symmetry. apply order_by_faces; tauto. }
  split; intros O.
  - destruct (Hnew p (orderOf_contains r' p 0 O)) as [Hp|(k & Ok' & Hk)]; [now rewrite <- (E Hp)|].
    rewrite O in Ok'. injection Ok' as <-. lia.
  - rewrite E; [exact O|]. apply Hin. exact (orderOf_contains src p 0 O).
Qed.
