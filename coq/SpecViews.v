(* SpecViews.v -- the boolean statement `viewsb` of "the views agree" (C03) holds of every complex
   with the vertex-set reading: each of its conjuncts is the boolean form of a theorem about such
   complexes, so it follows from the invariant and is not a fact to evaluate.  Plain Coq. *)
From Coq Require Import String ZArith Bool Arith List Lia.
From SV Require Import Names NamesFacts ListFacts Rep Complex RepInv Shapes Incidence Closed BasisInv Duality CopyFaithful
                       VInv AwbSpec VSets DD Sweeps SpecSets.
Import ListNotations.
Open Scope nat_scope.

Lemma forallb_seq (f : nat -> bool) n : (forall i, i < n -> f i = true) -> forallb f (seq 0 n) = true.
Proof. intros H. apply forallb_forall. intros i Hi. apply in_seq in Hi. apply H. lia. Qed.

Lemma eqb_of_iff (a b : bool) : (a = true <-> b = true) -> Bool.eqb a b = true.
Proof. intros H. apply eqb_true_iff, eq_true_iff_eq, H. Qed.

Lemma eqb_memn x l y m : (In x l <-> In y m) -> Bool.eqb (memn x l) (memn y m) = true.
Proof. intros H. apply eqb_of_iff. now rewrite !memn_In. Qed.

Lemma bent_zeros a b i j : bent (zeros a b) i j = false.
Proof.
  unfold bent, zeros. cbn [mcols]. destruct (Nat.lt_ge_cases j b) as [Hj|Hj].
  - rewrite (nth_indep _ [] (repeat false a)) by now rewrite repeat_length.
    rewrite nth_repeat. destruct (Nat.lt_ge_cases i a) as [Hi|Hi].
    + now rewrite nth_repeat.
    + apply nth_overflow. now rewrite repeat_length.
  - rewrite (nth_overflow _ [] ) by now rewrite repeat_length. now destruct i.
Qed.

Section Views.
  Variable r : rep.
  Hypothesis Hv : vinv r.
  Let Hb : bcinv r := v_b r Hv.
  Let HS : sinv r := c_s r (b_c r Hb).
  Let P : pinv r := s_p r HS.

  Lemma views_boundary0 :
    let B := boundaryOperator r 0 in
    (nrows B =? 1) && (ncols B =? length (simplicesOfOrder r 0)) &&
    forallb (fun j => negb (bent B 0 j)) (seq 0 (ncols B)) = true.
  Proof.
    cbv zeta. rewrite (boundary_ncols r 0 HS).
    change (boundaryOperator r 0) with (zeros 1 (length (simplicesOfOrder r 0))). change (nrows (zeros 1 _)) with 1.
    rewrite !Nat.eqb_refl. apply forallb_seq. intros j _. now rewrite bent_zeros.
  Qed.

  Lemma views_boundary_above k : k <> 0 -> r_nord r <= k ->
    let B := boundaryOperator r k in (nrows B =? 0) && (ncols B =? 0) = true.
  Proof.
    intros H0 Hk. unfold boundaryOperator. apply Nat.eqb_neq in H0. apply Nat.leb_le in Hk. now rewrite H0, Hk.
  Qed.

  Lemma views_boundary_entries k : k <> 0 -> k < r_nord r ->
    let B := boundaryOperator r k in
    (nrows B =? length (simplicesOfOrder r (k - 1))) && (ncols B =? length (simplicesOfOrder r k)) &&
    forallb (fun j => forallb (fun i =>
       Bool.eqb (bent B i j)
                (memn (nth i (simplicesOfOrder r (k - 1)) (NInt 0)) (faces r (nth j (simplicesOfOrder r k) (NInt 0)))))
       (seq 0 (nrows B))) (seq 0 (ncols B)) = true.
  Proof.
    intros H0 Hk. cbv zeta. destruct (boundary_shape r k HS Hk) as [Hc Hr]. rewrite Hc, Hr, !Nat.eqb_refl by lia.
    destruct k as [|k']; [contradiction|]. replace (S k' - 1) with k' by lia.
    apply forallb_seq. intros j Hj. apply forallb_seq. intros i Hi.
    destruct (nth_error (simplicesOfOrder r (S k')) j) as [s|] eqn:Es; [|apply nth_error_None in Es; lia].
    destruct (nth_error (simplicesOfOrder r k') i) as [t|] eqn:Et; [|apply nth_error_None in Et; lia].
    rewrite (nth_error_nth _ j (NInt 0) Es), (nth_error_nth _ i (NInt 0) Et).
    apply eqb_of_iff. rewrite memn_In. exact (boundary_entries r k' i j s t HS Es Et).
  Qed.

  Variables (s : name) (k i : nat).
  Hypothesis As : assoc s (r_simp r) = Some (k, i).

  Lemma views_cofaces l : forallb (fun t => Bool.eqb (memn t (cofaces r s)) (memn s (faces r t))) l = true.
  Proof. apply forallb_forall. intros t _. apply eqb_memn. symmetry. apply (cofaces_inverse_of_faces r HS). Qed.

  Lemma views_index :
    match indexOf r s with Ok i => name_eqb (nth i (simplicesOfOrder r (ord r s)) (NInt (-1))) s | Raise _ => false end = true.
  Proof.
    rewrite (ord_assoc r s k i As).
    assert (H : orderOf r s = Ok k /\ indexOf r s = Ok i) by (unfold orderOf, indexOf; now rewrite As).
    rewrite (proj2 H). apply (orderOf_indexOf_position r s k i P) in H.
    rewrite (nth_error_nth _ i _ H). apply name_eqb_refl.
  Qed.

  (* the points of the closure are what k face steps reach: a chain of j steps ends at order k - j *)
  Lemma views_basis :
    match closureOf r s false false with
    | Ok cl => seteq (basisOf r s) (filter (fun t => ord r t =? 0) cl)
    | Raise _ => false end = true.
  Proof.
    destruct (closureOf r s false false) as [cl|e] eqn:Ec.
    2: { unfold closureOf, orderOf in Ec. rewrite As in Ec. discriminate. }
    apply seteq_sameset. intros p. rewrite filter_In, Nat.eqb_eq.
    rewrite (basis_is_closure_points r Hb k s i As p), (closureOf_spec r HS s k i false cl As Ec p). split.
    - intros H. split; [eauto|]. destruct (fchain_order r HS k s p k i As H) as (_ & ip & Ap).
      rewrite (ord_assoc r p _ ip Ap). lia.
    - intros [(j & H) Ho]. destruct (fchain_order r HS j s p k i As H) as (Hj & ip & Ap).
      rewrite (ord_assoc r p _ ip Ap) in Ho. now replace k with j by lia.
  Qed.

  Lemma views_dd :
    match boundary r [s] with
    | Ok b => match boundary r b with Ok bb => length bb =? 0 | Raise _ => length b =? 0 end
    | Raise _ => false end = true.
  Proof.
    destruct (boundary r [s]) as [b|e] eqn:Eb.
    - now rewrite (boundary_of_boundary r Hv [s] b Eb).
    - unfold boundary in Eb. rewrite (chain_ok r [s] k) in Eb; [discriminate|]. intros t [<-|[]]. eauto.
  Qed.
End Views.

Theorem viewsb_of_invariants r : vinv r -> viewsb r = true.
Proof.
  intros Hv. pose proof (vinv_pinv r Hv) as P. unfold viewsb. apply andb_true_intro. split.
  - apply forallb_forall. intros k _. destruct (Nat.eqb_spec k 0) as [->|H0]; [exact (views_boundary0 r Hv)|].
    destruct (Nat.leb_spec (r_nord r) k) as [Hk|Hk]; [now apply views_boundary_above | now apply views_boundary_entries].
  - apply forallb_forall. intros s Hs. apply (In_simplices_iff r s P), containsSimplex_assoc in Hs. destruct Hs as (k & i & As).
    rewrite (views_cofaces r Hv s), (views_index r Hv s k i As), (views_basis r Hv s k i As), (views_dd r Hv s k i As).
    reflexivity.
Qed.
