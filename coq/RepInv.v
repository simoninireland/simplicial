(* RepInv.v -- representation invariants of ReferenceRepresentation, for every history of its
   three mutators: the name -> (order, index) dictionary is exactly the position map of the
   per-order listings, names are unique, listings above the maximum order are empty.  Plain Coq. *)
From Coq Require Import String ZArith Bool Arith List Lia.
From SV Require Import Names NamesFacts ListFacts Rep Fresh Complex Atomic.
Import ListNotations.
Open Scope nat_scope.

Record pinv (r : rep) : Prop := mkPinv {
  pi_keys : NoDup (map fst (r_simp r));
  pi_pos : forall s k i, assoc s (r_simp r) = Some (k, i) <-> (k < r_nord r /\ nth_error (idxk r k) i = Some s);
  pi_stale : forall k, r_nord r <= k -> idxk r k = [];
  pi_len : r_nord r <= length (r_idx r) }.

Lemma containsSimplex_assoc r s : containsSimplex r s = true <-> exists k i, assoc s (r_simp r) = Some (k, i).
Proof.
  unfold containsSimplex. destruct (assoc s (r_simp r)) as [[k i]|]; split; eauto; try discriminate.
  intros (k & i & H). discriminate.
Qed.

Lemma assoc_contains r s k i : assoc s (r_simp r) = Some (k, i) -> containsSimplex r s = true.
Proof. intros H. apply containsSimplex_assoc. eauto. Qed.

Lemma containsSimplex_false_assoc r s : containsSimplex r s = false <-> assoc s (r_simp r) = None.
Proof. unfold containsSimplex. destruct (assoc s (r_simp r)); split; congruence. Qed.

Lemma orderOf_assoc r s k : orderOf r s = Ok k <-> exists i, assoc s (r_simp r) = Some (k, i).
Proof.
  unfold orderOf. destruct (assoc s (r_simp r)) as [[k0 i0]|]; split.
  - intros H; injection H as ->. eauto.
  - intros (i & H); injection H as -> _. reflexivity.
  - discriminate.
  - intros (i & H). discriminate.
Qed.

Lemma indexOf_assoc r s i : indexOf r s = Ok i <-> exists k, assoc s (r_simp r) = Some (k, i).
Proof.
  unfold indexOf. destruct (assoc s (r_simp r)) as [[k0 i0]|]; split.
  - intros H; injection H as ->. eauto.
  - intros (k & H); injection H as _ ->. reflexivity.
  - discriminate.
  - intros (k & H). discriminate.
Qed.

Lemma simplicesOfOrder_above r j : r_nord r <= j -> simplicesOfOrder r j = [].
Proof. intros H. unfold simplicesOfOrder. now rewrite (proj2 (Nat.ltb_ge _ _) H). Qed.

Lemma simplicesOfOrder_below r j : j < r_nord r -> simplicesOfOrder r j = idxk r j.
Proof. intros H. unfold simplicesOfOrder. now rewrite (proj2 (Nat.ltb_lt _ _) H). Qed.

Lemma pinv_pos_lt r s k i : pinv r -> assoc s (r_simp r) = Some (k, i) ->
  k < r_nord r /\ i < length (idxk r k) /\ k < length (r_idx r).
Proof.
  intros P A. apply (pi_pos r P) in A. destruct A as [Hk Hi]. pose proof (pi_len r P).
  repeat split; [exact Hk | apply nth_error_Some; congruence | lia].
Qed.

Lemma simplicesOfOrder_idxk r k : pinv r -> simplicesOfOrder r k = idxk r k.
Proof.
  intros P. destruct (Nat.lt_ge_cases k (r_nord r)) as [H|H].
  - now apply simplicesOfOrder_below.
  - now rewrite simplicesOfOrder_above, (pi_stale r P).
Qed.

Lemma nth_simplicesOfOrder r s k i : pinv r ->
  nth_error (simplicesOfOrder r k) i = Some s <-> assoc s (r_simp r) = Some (k, i).
Proof.
  intros P. rewrite (pi_pos r P). unfold simplicesOfOrder. destruct (Nat.ltb_spec k (r_nord r)) as [H|H].
  - tauto.
  - split; [destruct i; discriminate | lia].
Qed.

Lemma listed_assoc r s k : pinv r -> In s (simplicesOfOrder r k) <-> exists j, assoc s (r_simp r) = Some (k, j).
Proof.
  intros P. rewrite nth_error_In'. split; intros [j H]; exists j; now apply (nth_simplicesOfOrder r s k j P).
Qed.

Lemma listed_contains r s k : pinv r -> In s (simplicesOfOrder r k) -> containsSimplex r s = true.
Proof. intros P H. apply (listed_assoc r s k P) in H. destruct H as (j & A). exact (assoc_contains r s k j A). Qed.

Lemma orderOf_contains r s k : orderOf r s = Ok k -> containsSimplex r s = true.
Proof. intros O. apply orderOf_assoc in O. destruct O as (j & A). exact (assoc_contains r s k j A). Qed.

Lemma listed_iff_order r s k : pinv r -> (In s (simplicesOfOrder r k) <-> orderOf r s = Ok k).
Proof. intros P. rewrite orderOf_assoc. now apply listed_assoc. Qed.

Lemma assoc_nth r s k j : pinv r -> assoc s (r_simp r) = Some (k, j) ->
  j < length (simplicesOfOrder r k) /\ nth j (simplicesOfOrder r k) (NInt 0) = s.
Proof.
  intros P A. apply (nth_simplicesOfOrder r s k j P) in A.
  split; [apply nth_error_Some; congruence | exact (nth_error_nth _ _ _ A)].
Qed.

Lemma nth_assoc r k i : pinv r -> i < length (simplicesOfOrder r k) ->
  assoc (nth i (simplicesOfOrder r k) (NInt 0)) (r_simp r) = Some (k, i).
Proof. intros P Hi. apply (nth_simplicesOfOrder r _ k i P). now apply nth_error_nth'. Qed.

Lemma pinv_at r s k i : pinv r -> assoc s (r_simp r) = Some (k, i) <-> nth_error (idxk r k) i = Some s.
Proof.
  intros P. rewrite (pi_pos r P). split; [tauto|]. intros H. split; [|exact H].
  destruct (Nat.lt_ge_cases k (r_nord r)) as [Hk|Hk]; [exact Hk|].
  rewrite (pi_stale r P k Hk) in H. now destruct i.
Qed.

(* k < r_nord r in pi_pos follows from pi_stale: it need not be proved to establish the invariant *)
Lemma pinv_intro r : NoDup (map fst (r_simp r)) ->
  (forall s k i, assoc s (r_simp r) = Some (k, i) <-> nth_error (idxk r k) i = Some s) ->
  (forall k, r_nord r <= k -> idxk r k = []) -> r_nord r <= length (r_idx r) -> pinv r.
Proof.
  intros K At St L. constructor; auto. intros s k i. rewrite At. split; [|tauto]. intros H. split; [|exact H].
  destruct (Nat.lt_ge_cases k (r_nord r)) as [Hk|Hk]; [exact Hk|]. rewrite (St k Hk) in H. now destruct i.
Qed.

Lemma pinv_same_obs r r' : same_obs r r' -> pinv r -> pinv r'.
Proof.
  intros Hs [K P S L]. rewrite (same_obs_eq r r' Hs). now constructor.
Qed.

Lemma pinv_empty uid : pinv (empty_rep uid).
Proof.
  constructor; simpl; auto.
  - constructor.
  - intros s k i. split; [discriminate | intros [H _]; lia].
  - intros k _. unfold idxk. simpl. now destruct k.
Qed.

Lemma addSimplex_form r fs id attr r' n :
  addSimplex r fs id attr = (r', Ok n) ->
  let k := length fs - 1 in
  exists r2 h, same_obs r r2 /\ containsSimplex r2 n = false /\ check_faces r2 k fs = Ok tt /\
    (k = 0 -> fs = []) /\ k <= r_nord r2 /\
    let g := r_nord r2 <=? k in
    let idx_g := if g then r_idx r2 ++ [[]] else r_idx r2 in
    r_nord r' = (if g then S k else r_nord r2) /\
    r_idx r' = upd_nth k (fun l => l ++ [n]) [] idx_g /\
    r_simp r' = r_simp r2 ++ [(n, (k, length (nth k (upd_nth k (fun l => l ++ [n]) [] idx_g) []) - 1))] /\
    r_attr r' = r_attr r2 ++ [(n, h)] /\
    (attr = Some h \/ (attr = None /\ fst h = r_uid r)) /\ r_uid r' = r_uid r.
Proof.
  intros H. apply addSimplex_inv in H. cbv zeta in *.
  destruct H as (r2 & Hs & _ & _ & _ & h & H & _ & Hh & Hc & _ & Ec & Hk0 & Hk & _).
  exists r2, h. do 5 (split; [assumption|]).
  assert (Hu : r_uid r2 = r_uid r) by apply Hs.
  (* the fields are read off the accepted call, whichever way it went *)
  unfold addSimplex in H. rewrite Hc, Ec in H.
  destruct (_ && _) in H; [discriminate|]. destruct (negb _) in H; [discriminate|].
  destruct (r_nord r2 <=? length fs - 1).
  - destruct (r_nord r2 <? _) in H; [discriminate|].
    destruct (length fs - 1); cbn [fst snd r_nord set_struct] in H; rewrite ?Nat.ltb_irrefl in H;
      injection H as <-; simpl; auto 7.
  - destruct (0 <? _) in H; [destruct (simplexWithFaces r2 fs) as [[sw|]|e] in H; try discriminate|];
      destruct (length fs - 1); cbn [fst snd] in H; destruct (S _ <? _) in H;
      injection H as <-; simpl; auto 7.
Qed.

Lemma idxk_after_add r2 k n : r_nord r2 <= length (r_idx r2) -> k <= r_nord r2 ->
  let idx' := upd_nth k (fun l => l ++ [n]) [] (if r_nord r2 <=? k then r_idx r2 ++ [[]] else r_idx r2) in
  (forall j, nth j idx' [] = if j =? k then idxk r2 k ++ [n] else idxk r2 j) /\
  Nat.max (r_nord r2) (S k) <= length idx'.
Proof.
  intros L Hk idx'. unfold idx', idxk. rewrite length_upd_nth.
  destruct (Nat.leb_spec (r_nord r2) k) as [G|G].
  - split; [|rewrite app_length; simpl; lia].
    intros j. rewrite nth_upd_nth, app_length, ltb_true by (simpl; lia).
    rewrite andb_true_r, !nth_app_snoc_nil. reflexivity.
  - split; [|lia]. intros j. rewrite nth_upd_nth, ltb_true by lia. now rewrite andb_true_r.
Qed.

Theorem addSimplex_pinv r fs id attr r' x : pinv r -> addSimplex r fs id attr = (r', x) -> pinv r'.
Proof.
  revert r fs id attr r' x. apply (addSimplex_lift pinv pinv_same_obs). intros r fs id attr r' n Hinv H.
  apply addSimplex_form in H. cbv zeta in H. set (k := length fs - 1) in *.
  destruct H as (r2 & h & Hs & Hc & _ & _ & Hk & Hn & Hi & Hsimp & _).
  apply (pinv_same_obs _ _ Hs) in Hinv. clear r Hs. apply containsSimplex_false_assoc in Hc.
  destruct (idxk_after_add r2 k n (pi_len r2 Hinv) Hk) as [Hidx Hlen]. rewrite <- Hi in *.
  rewrite Hidx, Nat.eqb_refl, app_length, Nat.add_sub in Hsimp.
  assert (Hn' : r_nord r' = Nat.max (r_nord r2) (S k)) by (rewrite Hn; destruct (Nat.leb_spec (r_nord r2) k); lia).
  apply pinv_intro.
  - rewrite Hsimp, map_app. apply NoDup_app_snoc; [apply (pi_keys r2 Hinv) | now apply assoc_none_notin].
  - (* a name stands at a place of the new table iff it stood there before or is n at the end of listing k *)
    intros s k0 i0. unfold idxk. rewrite Hidx, Hsimp, assoc_app. cbn [assoc].
    assert (Hnew : nth_error (if k0 =? k then idxk r2 k ++ [n] else idxk r2 k0) i0 = Some s <->
                   assoc s (r_simp r2) = Some (k0, i0) \/ (k0 = k /\ i0 = length (idxk r2 k) /\ s = n)).
    { rewrite (pinv_at r2 s k0 i0 Hinv). destruct (Nat.eqb_spec k0 k) as [->|Hne]; [|tauto].
      rewrite nth_error_snoc. destruct (Nat.ltb_spec i0 (length (idxk r2 k))) as [Hlt|Hge]; [split; [tauto | intros [H|H]; [exact H | lia]]|].
      apply nth_error_None in Hge. rewrite Hge.
      destruct (Nat.eqb_spec i0 (length (idxk r2 k))) as [->|Hne]; split; try discriminate.
      - intros E; injection E as <-. auto.
      - intros [H|(_ & _ & ->)]; [discriminate | reflexivity].
      - intros [H|H]; [discriminate | tauto]. }
    rewrite Hnew. split.
    + intros E. destruct (assoc s (r_simp r2)); [now left | right].
      destruct (name_eqb_spec s n) as [->|]; [injection E as <- <-; auto | discriminate].
    + intros [A|(-> & -> & ->)]; [now rewrite A | now rewrite Hc, name_eqb_refl].
  - intros k0 Hk0. unfold idxk. rewrite Hidx. rewrite Hn' in Hk0.
    destruct (Nat.eqb_spec k0 k); [lia|]. apply (pi_stale r2 Hinv). lia.
  - now rewrite Hn'.
Qed.

(* membership after an accepted add: the new name and nothing else (pinv r is not needed) *)
Lemma addSimplex_contains r fs id attr r' n : pinv r -> addSimplex r fs id attr = (r', Ok n) ->
  containsSimplex r n = false /\ forall s, containsSimplex r' s = containsSimplex r s || name_eqb s n.
Proof.
  intros _ H. apply addSimplex_form in H. cbv zeta in H.
  destruct H as (r2 & h & Hs & Hc & _ & _ & _ & _ & _ & Hsimp & _).
  rewrite (same_obs_contains r r2 n Hs) in Hc. split; [exact Hc|]. intros s.
  unfold containsSimplex. rewrite Hsimp, assoc_app. destruct Hs as (_ & _ & -> & _).
  destruct (assoc s (r_simp r)); [reflexivity|]. cbn [assoc]. now destruct (name_eqb s n).
Qed.

Lemma pinv_nodup_order r k : pinv r -> NoDup (idxk r k).
Proof.
  intros P. apply NoDup_nth_error. intros i j Hi Hij.
  destruct (nth_error (idxk r k) i) as [s|] eqn:E; [|apply nth_error_None in E; lia].
  symmetry in Hij. apply (pinv_at r s k _ P) in E, Hij. congruence.
Qed.

Lemma pinv_unique_pos r s k i k' i' : pinv r ->
  nth_error (idxk r k) i = Some s -> nth_error (idxk r k') i' = Some s -> k = k' /\ i = i'.
Proof. intros P H H'. apply (pinv_at r s _ _ P) in H, H'. split; congruence. Qed.

Theorem relabelSimplex_pinv r s q r' x : pinv r -> relabelSimplex r s q = (r', x) -> pinv r'.
Proof.
  revert r s q r' x. apply (relabelSimplex_lift pinv). intros r s q r' P H.
  unfold relabelSimplex in H. destruct (containsSimplex r q) eqn:Aq; [discriminate|].
  apply containsSimplex_false_assoc in Aq.
  destruct (assoc s (r_simp r)) as [[k i]|] eqn:As; [|discriminate]. injection H as <-.
  assert (Hsq : s <> q) by congruence.
  destruct (pinv_pos_lt r s k i P As) as (Hk & Hi & Hkl).
  assert (Hidx : forall k0, nth k0 (upd_nth k (set_nth i q) [] (r_idx r)) [] =
                            if k0 =? k then set_nth i q (idxk r k) else idxk r k0).
  { intros k0. rewrite nth_upd_nth, (ltb_true k) by exact Hkl. now rewrite andb_true_r. }
  apply pinv_intro; unfold idxk; cbn [r_simp r_idx r_nord].
  - rewrite map_app. apply NoDup_app_snoc; [apply nodup_assoc_del, (pi_keys r P)|].
    intros Hin. apply in_map_fst_assoc_del in Hin. now apply assoc_none_notin in Aq.
  - (* a name stands at a place of the new table iff it is q at the place of s, or another name that stood there *)
    intros t k0 j. rewrite Hidx, assoc_app. cbn [assoc].
    assert (Hnew : nth_error (if k0 =? k then set_nth i q (idxk r k) else idxk r k0) j = Some t <->
                   (k0 = k /\ j = i /\ t = q) \/ (t <> s /\ assoc t (r_simp r) = Some (k0, j))).
    { rewrite (pinv_at r t k0 j P).
      assert (Hs : nth_error (idxk r k0) j = Some t -> t <> s -> ~ (k0 = k /\ j = i)).
      { intros Ht Hne [-> ->]. apply (pinv_at r s k i P) in As. congruence. }
      destruct (Nat.eqb_spec k0 k) as [->|Hne].
      - rewrite nth_error_set_nth, (ltb_true i) by exact Hi. rewrite andb_true_r.
        destruct (Nat.eqb_spec j i) as [->|Hji].
        + split; [intros E; injection E as <-; auto | intros [(_ & _ & ->)|[Hne Ht]]; [reflexivity | exfalso; apply (Hs Ht Hne); auto]].
        + split; [|intros [?|?]; [lia | tauto]]. intros Ht. right. split; [|exact Ht].
          intros ->. apply (pinv_at r s k j P) in Ht. congruence.
      - split; [|intros [?|?]; [lia | tauto]]. intros Ht. right. split; [|exact Ht].
        intros ->. apply (pinv_at r s k0 j P) in Ht. congruence. }
    rewrite Hnew. split.
    + intros E. destruct (name_eqb_spec t s) as [->|Hts].
      * rewrite assoc_del_same, (name_eqb_neq s q) in E by (auto; apply (pi_keys r P)). discriminate.
      * rewrite assoc_del_other in E by exact Hts. destruct (assoc t (r_simp r)); [now right | left].
        destruct (name_eqb_spec t q) as [->|]; [injection E as <- <-; auto | discriminate].
    + intros [(-> & -> & ->)|[Hts A]].
      * rewrite assoc_del_other, Aq, name_eqb_refl by auto. reflexivity.
      * now rewrite assoc_del_other, A.
  - intros k0 Hk0. rewrite Hidx. destruct (Nat.eqb_spec k0 k); [lia | now apply (pi_stale r P)].
  - rewrite length_upd_nth. apply (pi_len r P).
Qed.

Fixpoint index_of (t : name) (l : list name) : option nat :=
  match l with
  | [] => None
  | x :: r => if name_eqb t x then Some 0 else option_map S (index_of t r)
  end.

Lemma index_of_none t l : index_of t l = None <-> ~ In t l.
Proof.
  induction l as [|x r IH]; simpl; [tauto|].
  destruct (name_eqb_spec t x) as [->|Hne].
  - split; [discriminate | intros H; exfalso; apply H; now left].
  - destruct (index_of t r) as [m|]; simpl.
    + split; [discriminate|]. intros H. exfalso.
      assert (Hn : ~ In t r) by tauto. apply IH in Hn. discriminate.
    + split; [|reflexivity]. intros _ [H|H]; [congruence|]. destruct IH as [IH _]. now apply IH.
Qed.

Lemma index_of_some t l m : index_of t l = Some m -> nth_error l m = Some t.
Proof.
  revert m; induction l as [|x r IH]; intros m; simpl; [discriminate|].
  destruct (name_eqb_spec t x) as [->|Hne].
  - intros H; injection H as <-. reflexivity.
  - destruct (index_of t r) as [m'|]; simpl; [|discriminate]. intros H; injection H as <-. simpl. auto.
Qed.

Lemma index_of_nth t l m : NoDup l -> nth_error l m = Some t -> index_of t l = Some m.
Proof.
  intros Hnd H. destruct (index_of t l) as [m'|] eqn:E.
  - apply index_of_some in E. f_equal. eapply NoDup_nth_error_inj; eauto.
  - apply index_of_none in E. exfalso. apply E. eapply nth_error_In; eauto.
Qed.

Lemma assoc_renumber k : forall ts j simp t, NoDup ts ->
  assoc t (renumber k j ts simp) =
  match index_of t ts with Some m => Some (k, j + m) | None => assoc t simp end.
Proof.
  induction ts as [|a ts IH]; intros j simp t Hnd; simpl; [reflexivity|].
  inversion Hnd as [|? ? Ha Hts]; subst. rewrite IH by exact Hts.
  destruct (name_eqb_spec t a) as [->|Hne].
  - assert (E : index_of a ts = None) by (now apply index_of_none). rewrite E.
    rewrite assoc_set_same. f_equal. f_equal. lia.
  - destruct (index_of t ts) as [m|]; simpl.
    + f_equal. f_equal. lia.
    + now apply assoc_set_other.
Qed.

Lemma map_fst_renumber k : forall ts j (simp : list (name * (nat * nat))),
  (forall t, In t ts -> In t (map fst simp)) -> map fst (renumber k j ts simp) = map fst simp.
Proof.
  induction ts as [|a ts IH]; intros j simp H; simpl; [reflexivity|].
  rewrite IH.
  - apply map_fst_assoc_set. apply H. now left.
  - intros t Ht. rewrite map_fst_assoc_set by (apply H; now left). apply H. now right.
Qed.

Lemma forceDelete_fields r s k i : k < length (r_idx r) -> assoc s (r_simp r) = Some (k, i) ->
  let r' := fst (forceDeleteSimplex r s) in
  r_idx r' = upd_nth k (remove_nth i) [] (r_idx r) /\
  r_nord r' = (if (S k =? r_nord r) && (length (remove_nth i (idxk r k)) =? 0) then k else r_nord r) /\
  r_simp r' = renumber k i (skipn (S i) (idxk r k)) (assoc_del s (r_simp r)).
Proof.
  intros Hkl As. unfold forceDeleteSimplex. rewrite As. cbv zeta.
  rewrite nth_upd_nth_same, skipn_remove_nth by exact Hkl. fold (idxk r k).
  destruct (_ && _); repeat split.
Qed.

Section ForceDelete.
  Variables (r : rep) (s : name) (k i : nat).
  Hypothesis P : pinv r.
  Hypothesis As : assoc s (r_simp r) = Some (k, i).
  Let r' := fst (forceDeleteSimplex r s).

  Lemma forceDelete_idx j : idxk r' j = if j =? k then remove_nth i (idxk r k) else idxk r j.
  Proof.
    destruct (pinv_pos_lt r s k i P As) as (_ & _ & Hkl). destruct (forceDelete_fields r s k i Hkl As) as (E & _).
    unfold idxk at 1. fold r' in E. rewrite E, nth_upd_nth, (ltb_true k) by exact Hkl. now rewrite andb_true_r.
  Qed.

  Lemma forceDelete_nord :
    r_nord r' = if (S k =? r_nord r) && (length (remove_nth i (idxk r k)) =? 0) then k else r_nord r.
  Proof. destruct (pinv_pos_lt r s k i P As) as (_ & _ & Hkl). apply (forceDelete_fields r s k i Hkl As). Qed.

  Lemma forceDelete_assoc t : assoc t (r_simp r') =
    if name_eqb t s then None else
    match assoc t (r_simp r) with
    | Some (k0, i0) => Some (k0, if (k0 =? k) && (i <? i0) then i0 - 1 else i0)
    | None => None
    end.
  Proof.
    destruct (pinv_pos_lt r s k i P As) as (Hk & Hi & Hkl). destruct (forceDelete_fields r s k i Hkl As) as (_ & _ & E).
    fold r' in E. rewrite E. clear E.
    assert (Hnd : NoDup (skipn (S i) (idxk r k))) by (apply NoDup_skipn, pinv_nodup_order, P).
    assert (Htail : forall m, index_of t (skipn (S i) (idxk r k)) = Some m <-> assoc t (r_simp r) = Some (k, S i + m)).
    { intros m. rewrite (pinv_at r t k _ P), <- nth_error_skipn. split; [apply index_of_some | now apply index_of_nth]. }
    rewrite assoc_renumber by exact Hnd.
    destruct (index_of t _) as [m|] eqn:E in |- *.
    - apply Htail in E. rewrite E, (name_eqb_neq t s) by (intros ->; rewrite As in E; injection E; lia).
      rewrite Nat.eqb_refl, (ltb_true i) by lia. cbn [andb]. do 2 f_equal. lia.
    - destruct (name_eqb_spec t s) as [->|Hts]; [apply assoc_del_same, (pi_keys r P)|].
      rewrite assoc_del_other by exact Hts.
      destruct (assoc t (r_simp r)) as [[k0 i0]|] eqn:A; [|reflexivity].
      destruct (Nat.eqb_spec k0 k) as [->|]; [|reflexivity]. destruct (Nat.ltb_spec i i0); [|reflexivity].
      assert (E' : index_of t (skipn (S i) (idxk r k)) = Some (i0 - S i)) by (apply Htail; do 2 f_equal; lia).
      congruence.
  Qed.
End ForceDelete.

Theorem forceDeleteSimplex_pinv r s r' x : pinv r -> forceDeleteSimplex r s = (r', x) -> pinv r'.
Proof.
  revert r s r' x. apply (forceDeleteSimplex_lift pinv). intros r s r' P H.
  destruct (assoc s (r_simp r)) as [[k i]|] eqn:As; [|unfold forceDeleteSimplex in H; rewrite As in H; discriminate].
  apply (f_equal fst) in H. cbn [fst] in H. subst r'.
  destruct (pinv_pos_lt r s k i P As) as (Hk & Hi & Hkl).
  pose proof (forceDelete_idx r s k i P As) as Hidx. pose proof (forceDelete_nord r s k i P As) as Hn.
  pose proof (forceDelete_assoc r s k i P As) as Ha.
  pose proof (length_remove_nth (idxk r k) i Hi) as Hlen.
  set (r' := fst (forceDeleteSimplex r s)) in *.
  (* either the number of orders stays, or the top order had s alone and goes *)
  assert (Hcase : r_nord r' = r_nord r \/ (r_nord r' = k /\ S k = r_nord r /\ length (idxk r k) = 1)).
  { rewrite Hn. destruct (Nat.eqb_spec (S k) (r_nord r)); [|now left].
    destruct (Nat.eqb_spec (length (remove_nth i (idxk r k))) 0); cbn [andb]; [right; lia | now left]. }
  apply pinv_intro.
  - destruct (forceDelete_fields r s k i Hkl As) as (_ & _ & E). fold r' in E. rewrite E.
    rewrite map_fst_renumber; [apply nodup_assoc_del, (pi_keys r P)|].
    intros t Ht. apply nth_error_In' in Ht. destruct Ht as [m Hm]. rewrite nth_error_skipn in Hm.
    apply (pinv_at r t k _ P) in Hm. apply in_assoc_del_other; [intros ->; rewrite As in Hm; injection Hm; lia|].
    apply assoc_some_in in Hm. apply (in_map fst) in Hm. exact Hm.
  - (* the place (k1, j) of the new table is the place (k1, j') of the old one, j' past the gap in listing k *)
    intros t k1 j. rewrite Ha, Hidx.
    set (j' := if (k1 =? k) && negb (j <? i) then S j else j).
    assert (Hold : nth_error (if k1 =? k then remove_nth i (idxk r k) else idxk r k1) j = Some t <->
                   assoc t (r_simp r) = Some (k1, j')).
    { rewrite (pinv_at r t k1 j' P). unfold j'. destruct (k1 =? k) eqn:E; [|reflexivity].
      apply Nat.eqb_eq in E. subst k1. rewrite nth_error_remove_nth. now destruct (j <? i). }
    rewrite Hold. unfold j'. clear Hold j'.
    destruct (name_eqb_spec t s) as [->|Hts].
    + rewrite As. split; [discriminate|]. intros E. injection E as <- E.
      rewrite Nat.eqb_refl in E. destruct (Nat.ltb_spec j i); simpl in E; lia.
    + destruct (assoc t (r_simp r)) as [[k0 i0]|] eqn:A; [|split; discriminate].
      assert (Hne : k0 = k -> i0 <> i) by (intros -> ->; apply (pinv_at r _ _ _ P) in A, As; congruence).
      split.
      * intros E. injection E as <- <-. destruct (Nat.eqb_spec k0 k) as [->|Hk0k]; cbn [andb negb]; [|reflexivity].
        specialize (Hne eq_refl).
        destruct (Nat.ltb_spec i i0); [rewrite ltb_false by lia | rewrite ltb_true by lia]; cbn [negb]; do 2 f_equal; lia.
      * intros E. injection E as -> ->. do 2 f_equal.
        destruct (k1 =? k); [|reflexivity]. cbn [andb].
        destruct (Nat.ltb_spec j i); cbn [negb]; [rewrite ltb_false by lia | rewrite ltb_true by lia]; lia.
  - intros k0 Hk0. rewrite Hidx. destruct (Nat.eqb_spec k0 k) as [->|Hne].
    + apply length_zero_iff_nil. destruct Hcase as [E|(_ & _ & Hl)]; lia.
    + apply (pi_stale r P). destruct Hcase as [E|(E & Hs & _)]; lia.
  - destruct (forceDelete_fields r s k i Hkl As) as (E & _). fold r' in E. rewrite E, length_upd_nth.
    pose proof (pi_len r P). destruct Hcase as [E'|(E' & _)]; lia.
Qed.

Inductive rop :=
| OpAdd (fs : list name) (id : option name) (attr : option handle)
| OpRelabel (s q : name)
| OpForceDelete (s : name).
Definition rstep (r : rep) (o : rop) : rep :=
  match o with
  | OpAdd fs id attr => fst (addSimplex r fs id attr)
  | OpRelabel s q => fst (relabelSimplex r s q)
  | OpForceDelete s => fst (forceDeleteSimplex r s)
  end.

Lemma rstep_pinv r o : pinv r -> pinv (rstep r o).
Proof.
  intros H. destruct o; simpl.
  - destruct (addSimplex r fs id attr) eqn:E. eapply addSimplex_pinv; eauto.
  - destruct (relabelSimplex r s q) eqn:E. eapply relabelSimplex_pinv; eauto.
  - destruct (forceDeleteSimplex r s) eqn:E. eapply forceDeleteSimplex_pinv; eauto.
Qed.

Theorem reachable_pinv uid ops : pinv (fold_left rstep ops (empty_rep uid)).
Proof.
  apply fold_left_keeps; [intros r o _; apply rstep_pinv | apply pinv_empty].
Qed.

Theorem orderOf_indexOf_position r s k i : pinv r ->
  (orderOf r s = Ok k /\ indexOf r s = Ok i) <-> nth_error (simplicesOfOrder r k) i = Some s.
Proof.
  intros P. rewrite (nth_simplicesOfOrder r s k i P). unfold orderOf, indexOf.
  destruct (assoc s (r_simp r)) as [[k0 i0]|]; split; [intros [E1 E2] | intros E; split | intros [E _] | ]; congruence.
Qed.

Theorem contains_iff_listed r s : pinv r ->
  containsSimplex r s = true <-> exists k, In s (simplicesOfOrder r k).
Proof.
  intros P. rewrite containsSimplex_assoc. split.
  - intros (k & i & A). exists k. apply (listed_assoc r s k P). eauto.
  - intros (k & H). exists k. now apply (listed_assoc r s k P).
Qed.

Theorem listed_once r s k i k' i' : pinv r ->
  nth_error (simplicesOfOrder r k) i = Some s -> nth_error (simplicesOfOrder r k') i' = Some s -> k = k' /\ i = i'.
Proof. intros P H H'. apply (nth_simplicesOfOrder r s _ _ P) in H, H'. split; congruence. Qed.

Theorem simplices_nodup r : pinv r -> NoDup (simplices r false).
Proof.
  intros P. unfold simplices. apply NoDup_concat.
  - intros k. exact (pinv_nodup_order r k P).
  - intros k k' x Hne Hx Hx'. change (In x (idxk r k)) in Hx. change (In x (idxk r k')) in Hx'.
    apply nth_error_In' in Hx, Hx'. destruct Hx as [i Hi], Hx' as [i' Hi'].
    apply (pinv_at r x _ _ P) in Hi, Hi'. congruence.
Qed.

Theorem simplices_by_order r : pinv r ->
  simplices r false = concat (map (simplicesOfOrder r) (seq 0 (length (r_idx r)))).
Proof.
  intros P. unfold simplices. rewrite (concat_nth_seq (r_idx r)). f_equal. apply map_ext.
  intros k. symmetry. now apply simplicesOfOrder_idxk.
Qed.

Lemma simplices_concat r : pinv r -> simplices r false = concat (map (simplicesOfOrder r) (seq 0 (r_nord r))).
Proof.
  intros P. rewrite (simplices_by_order r P).
  replace (length (r_idx r)) with (r_nord r + (length (r_idx r) - r_nord r)) by (pose proof (pi_len r P); lia).
  rewrite seq_app, map_app, concat_app, (concat_all_nil (map _ (seq (0 + r_nord r) _))), app_nil_r; [reflexivity|].
  intros x Hx. apply in_map_iff in Hx. destruct Hx as [k [<- Hk]]. apply in_seq in Hk. apply simplicesOfOrder_above. lia.
Qed.

Lemma In_simplices_iff r s : pinv r -> (In s (simplices r false) <-> containsSimplex r s = true).
Proof.
  intros P. rewrite (simplices_concat r P), containsSimplex_assoc, in_concat. split.
  - intros (l & Hl & Hs). apply in_map_iff in Hl. destruct Hl as (k & <- & _).
    exists k. now apply (listed_assoc r s k P).
  - intros (k & i & A). exists (simplicesOfOrder r k). split; [|apply (listed_assoc r s k P); eauto].
    apply in_map, in_seq. apply (pinv_pos_lt r s k i P) in A. lia.
Qed.
