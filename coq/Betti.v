(* Betti.v -- smithNormalForm returns the partial identity of the GF(2) rank of the boundary
   operator (for every order, every representation), and bettiNumbers is
   (n_k - rank d_k) - rank d_{k+1}. *)
From Coq Require Import ZArith Lia.
From mathcomp Require Import ssreflect ssrfun ssrbool eqtype ssrnat seq choice fintype finfun bigop finset fingroup perm ssralg zmodp matrix mxalgebra.
From SV Require Import Rep Homology ListMat SnfCount Rank.
Set Implicit Arguments.
Unset Strict Implicit.
Unset Printing Implicit Defensive.
Import GRing.Theory.
Local Open Scope ring_scope.

(* the GF(2) rank of a stored 0/1 matrix, as Mathematical Components defines rank *)
Definition rk (m : mat) : nat := \rank (mxf (nrows m) (ncols m) (entry (rows_of m))).

Lemma rk_le_rows m : (rk m <= nrows m)%coq_nat. Proof. apply/leP; exact: rank_leq_row. Qed.
Lemma rk_le_cols m : (rk m <= ncols m)%coq_nat. Proof. apply/leP; exact: rank_leq_col. Qed.

Lemma rk_zero m :
  (forall i j, (i < nrows m)%coq_nat -> (j < ncols m)%coq_nat -> entry (rows_of m) i j = false) -> rk m = 0%N.
Proof.
move=> H; rewrite /rk (_ : mxf _ _ _ = 0) ?mxrank0 //.
by apply/matrixP => i j; rewrite !mxE H //; apply/ltP.
Qed.

Lemma rk_zeros a b : rk (zeros a b) = 0%N.
Proof. by apply: rk_zero => i j _ _; exact: entry_zeros. Qed.

Lemma rk_nocols m : ncols m = 0%N -> rk m = 0%N.
Proof. by move=> H; have := rk_le_cols m; rewrite H; lia. Qed.

Lemma bop_0 r : boundaryOperator r 0 = zeros 1 (length (simplicesOfOrder r 0)).
Proof. by []. Qed.

Lemma bop_above r k : (0 < k)%coq_nat -> (r_nord r <= k)%coq_nat -> boundaryOperator r k = emptymat.
Proof.
move=> H0 /PeanoNat.Nat.leb_le Hk; rewrite /boundaryOperator Hk.
by case: k H0 {Hk} => // H; lia.
Qed.

Lemma rk_bop0 r : rk (boundaryOperator r 0) = 0%N.
Proof. exact: rk_zeros. Qed.

Lemma rk_bop_above r k : (r_nord r <= k)%coq_nat -> rk (boundaryOperator r k) = 0%N.
Proof. by case: k => [|k] Hk; [exact: rk_bop0 | rewrite bop_above //; lia]. Qed.

(* C07: for every representation and every order the Smith normal form has the shape of the
   boundary operator and is the partial identity whose size is that operator's GF(2) rank *)
Theorem snf_pidform r k :
  let B := boundaryOperator r k in
  let '(nr, nc, D) := smithNormalForm r k in
  nr = nrows B /\ nc = ncols B /\ pidform nr nc (rk B) D.
Proof.
rewrite /smithNormalForm /=.
case E: ((k =? 0)%nat || (r_nord r <=? k)%nat); split=> //; split=> //; last first.
  exact: reduce_pid (wfm_rows_of _).
(* orders 0 and above the maximum: the operator itself, and it is zero *)
set B := boundaryOperator r k.
have Hz i j : (i < nrows B)%coq_nat -> (j < ncols B)%coq_nat -> entry (rows_of B) i j = false.
  rewrite /B; case: k E {B} => [|k] /=; first by rewrite entry_zeros.
  by move/PeanoNat.Nat.leb_le => E; rewrite bop_above //=; lia.
rewrite (rk_zero Hz); apply: block_pidform (wfm_rows_of B) _ _ _ _ => [| |i j _ _ [] H|i j Hi Hj _ _]; try lia.
exact: Hz.
Qed.

Lemma snf_ex r k : exists D,
  smithNormalForm r k = (nrows (boundaryOperator r k), ncols (boundaryOperator r k), D) /\
  pidform (nrows (boundaryOperator r k)) (ncols (boundaryOperator r k)) (rk (boundaryOperator r k)) D.
Proof.
have := snf_pidform r k.
case: (smithNormalForm r k) => [[nr nc] D] /= [-> [-> H]].
by exists D.
Qed.

(* C06: bettiNumbers reports (n_k - rank d_k) - rank d_{k+1} over GF(2), for every order k
   (n_k = number of columns of d_k; both ranks are 0 above the maximum order) *)
Theorem betti_formula r k :
  betti1 r k = Z.sub (Z.sub (Z.of_nat (ncols (boundaryOperator r k))) (Z.of_nat (rk (boundaryOperator r k))))
                     (Z.of_nat (rk (boundaryOperator r (S k)))).
Proof.
rewrite /betti1.
have [D [-> H]] := snf_ex r k.
have [D' [-> H']] := snf_ex r (S k).
rewrite (kernelDim_pid _ _ _ _ H) (imageDim_pid _ _ _ _ H').
have := H => -[_ [_ [Hle _]]].
lia.
Qed.

Theorem betti_above_max r k : (r_nord r <= k)%coq_nat -> (0 < k)%coq_nat -> betti1 r k = Z0.
Proof. by move=> Hk Hk0; rewrite betti_formula !rk_bop_above ?bop_above //; lia. Qed.
