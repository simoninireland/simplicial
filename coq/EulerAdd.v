(* EulerAdd.v -- C19: the Euler integral is additive over disjoint unions.  A complex u is the disjoint
   union of x and y when its simplices are those of x and of y (each once) and every simplex has in u the
   order and the smallest point metric it has in its part.  Immediate from the simplex-wise formula.  Plain Coq. *)
From Coq Require Import String ZArith Bool Arith List Lia Permutation.
From SV Require Import Names Rep VInv Gen EulerInt.
Import ListNotations.

(* each complex may read its attributes from a heap of its own (the parts before, the union after a construction) *)
Theorem integrate_additive_heaps hu hx hy a d u x y :
  vinv u -> vinv x -> vinv y ->
  (forall s, containsSimplex u s = true -> exists z, metric hu u a d s = Ok z) ->
  (forall s, containsSimplex x s = true -> exists z, metric hx x a d s = Ok z) ->
  (forall s, containsSimplex y s = true -> exists z, metric hy y a d s = Ok z) ->
  (forall p i, assoc p (r_simp u) = Some (0, i) -> (0 <= m hu a d u p)%Z) ->
  (forall p i, assoc p (r_simp x) = Some (0, i) -> (0 <= m hx a d x p)%Z) ->
  (forall p i, assoc p (r_simp y) = Some (0, i) -> (0 <= m hy a d y p)%Z) ->
  Permutation (simplices u false) (simplices x false ++ simplices y false) ->
  (forall s, In s (simplices x false) -> ord u s = ord x s /\ minm hu a d u s = minm hx a d x s) ->
  (forall s, In s (simplices y false) -> ord u s = ord y s /\ minm hu a d u s = minm hy a d y s) ->
  exists zx zy, integrate hx x a d = Ok zx /\ integrate hy y a d = Ok zy /\ integrate hu u a d = Ok (zx + zy)%Z.
Proof.
  intros Vu Vx Vy Nu Nx Ny Pu Px Py Hperm Hx Hy.
  rewrite (integrate_is_simplexwise_sum hu a d u Vu Nu Pu), (integrate_is_simplexwise_sum hx a d x Vx Nx Px),
          (integrate_is_simplexwise_sum hy a d y Vy Ny Py).
  eexists. eexists. split; [reflexivity|]. split; [reflexivity|]. f_equal.
  rewrite (zsum_perm _ _ _ Hperm), zsum_app. f_equal; apply zsum_ext_in; intros s Hs.
  - destruct (Hx s Hs) as [-> ->]. reflexivity.
  - destruct (Hy s Hs) as [-> ->]. reflexivity.
Qed.

Theorem integrate_additive hp a d u x y :
  vinv u -> vinv x -> vinv y ->
  (forall s, containsSimplex u s = true -> exists z, metric hp u a d s = Ok z) ->
  (forall s, containsSimplex x s = true -> exists z, metric hp x a d s = Ok z) ->
  (forall s, containsSimplex y s = true -> exists z, metric hp y a d s = Ok z) ->
  (forall p i, assoc p (r_simp u) = Some (0, i) -> (0 <= m hp a d u p)%Z) ->
  (forall p i, assoc p (r_simp x) = Some (0, i) -> (0 <= m hp a d x p)%Z) ->
  (forall p i, assoc p (r_simp y) = Some (0, i) -> (0 <= m hp a d y p)%Z) ->
  Permutation (simplices u false) (simplices x false ++ simplices y false) ->
  (forall s, In s (simplices x false) -> ord u s = ord x s /\ minm hp a d u s = minm hp a d x s) ->
  (forall s, In s (simplices y false) -> ord u s = ord y s /\ minm hp a d u s = minm hp a d y s) ->
  exists zx zy, integrate hp x a d = Ok zx /\ integrate hp y a d = Ok zy /\ integrate hp u a d = Ok (zx + zy)%Z.
Proof. exact (integrate_additive_heaps hp hp hp a d u x y). Qed.
