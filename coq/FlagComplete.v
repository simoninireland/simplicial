(* FlagComplete.v -- completeness of _completePotentialSimplices (C11, C12): on a complex that meets the
   vertex-set reading the sweep never fails, and afterwards EVERY set of two or more points that are pairwise
   joined by an edge carries a simplex.  With FlagSound.v: the flag complex is exactly the clique complex of
   the 1-skeleton.
   The sweep is followed for a set T of "tainted" point sets: it is told of every tainted simplex, every
   clique that is not carried has a tainted facet, and the tainted cliques are what it fills in.  For
   flagComplex every point set is tainted; for growFlagComplex (GrowComplete.v) those that contain the
   points of a new simplex are.  Plain Coq. *)
From Coq Require Import String ZArith Bool Arith List Lia.
From SV Require Import Names NamesFacts ListFacts Rep Fresh Complex Atomic RepInv Shapes Incidence AddEffect Closed
                       BasisInv VInv AwbSpec VSets DD Homology Listing FlagExt VIso MinCycle FlagSound.
Import ListNotations.
Open Scope nat_scope.

Lemma check_faces_ok r k fs : (forall f, In f fs -> exists j, assoc f (r_simp r) = Some (k - 1, j)) -> 1 <= k ->
  check_faces r k fs = Ok tt.
Proof.
  intros H Hk. induction fs as [|f t IH]; [reflexivity|]. cbn [check_faces].
  destruct (H f (or_introl eq_refl)) as (j & A). rewrite A.
  replace (S (k - 1) =? k) with true by (symmetry; apply Nat.eqb_eq; lia).
  apply IH. intros g Hg. apply H. now right.
Qed.

(* applied where the goal holds the whole of addSimplex, which a case analysis on the order would copy *)
Lemma nat_case_ok {A B} (k : nat) (a : A) (b : nat -> A) (n : B) :
  exists x y, match k with 0 => (a, Ok n) | S k' => (b k', Ok n) end = (x, Ok y).
Proof. destruct k; eexists; eexists; reflexivity. Qed.

Lemma addSimplex_succeeds r fs : NoDup fs -> 2 <= length fs -> length fs - 1 <= r_nord r ->
  (forall f, In f fs -> exists j, assoc f (r_simp r) = Some (length fs - 1 - 1, j)) ->
  (length fs - 1 < r_nord r -> simplexWithFaces r fs = Ok None) ->
  exists r' n, addSimplex r fs None None = (r', Ok n).
Proof.
  intros Hnd Hl Hk Hord Hswf. unfold addSimplex.
  replace ((length fs - 1 =? 0) && negb (length fs =? 0)) with false
    by (symmetry; apply andb_false_intro1; apply Nat.eqb_neq; lia).
  destruct (newSimplex_fresh r (length fs - 1)) as (i & id & -> & _ & _ & Hfresh).
  set (r1 := set_seq r (S i)). cbv zeta. unfold alloc.
  set (r2 := mkRep (r_uid r1) (r_nord r1) (r_simp r1) (r_idx r1) (r_bnd r1) (r_bas r1) (r_attr r1) (r_seq r1) (S (r_nalloc r1))).
  assert (Hs : same_obs r r2) by (repeat split).
  replace (negb (nodupb fs)) with false by (symmetry; apply negb_false_iff; now apply nodupb_NoDup).
  rewrite (check_faces_ok r2 (length fs - 1) fs); [|exact Hord|lia].
  change (r_nord r2) with (r_nord r).
  destruct (r_nord r <=? length fs - 1) eqn:E1.
  - apply Nat.leb_le in E1. replace (r_nord r <? length fs - 1) with false by (symmetry; apply Nat.ltb_ge; lia).
    apply nat_case_ok.
  - apply Nat.leb_gt in E1. replace (0 <? length fs - 1) with true by (symmetry; apply Nat.ltb_lt; lia).
    rewrite (simplexWithFaces_respects r r2 fs Hs), (Hswf E1). apply nat_case_ok.
Qed.

Lemma sOO_nonempty_lt r j i : i < length (simplicesOfOrder r j) -> j < r_nord r.
Proof.
  unfold simplicesOfOrder. destruct (j <? r_nord r) eqn:E; [intros _; now apply Nat.ltb_lt|]. simpl. lia.
Qed.

Lemma filter_in_combs {A} (p : A -> bool) : forall l, In (filter p l) (combs (length (filter p l)) l).
Proof.
  induction l as [|x t IH]; simpl; [now left|].
  destruct (p x) eqn:E; simpl.
  - apply in_or_app. left. apply in_map. exact IH.
  - destruct (length (filter p t)) as [|n] eqn:L.
    + destruct (filter p t); [now left | discriminate].
    + apply in_or_app. right. exact IH.
Qed.

Lemma map_nth_filter_seq (p : name -> bool) (l : list name) d :
  map (fun i => nth i l d) (filter (fun i => p (nth i l d)) (seq 0 (length l))) = filter p l.
Proof.
  rewrite <- (filter_map_fst (fun i => nth i l d) p). f_equal.
  rewrite (map_nth_seq (fun x => x) d l). apply map_id.
Qed.

Definition drop (x : name) (B : list name) : list name := filter (fun y => negb (name_eqb x y)) B.

Lemma drop_length x B : NoDup B -> In x B -> length B = S (length (drop x B)).
Proof. apply filter_neq_length. Qed.

Section Facets.
  Variable r : rep.
  Hypothesis Hv : vinv r.
  Let HS : sinv r := c_s r (b_c r (v_b r Hv)).
  Let P : pinv r := s_p r HS.
  Variable k : nat.
  Variable B : list name.
  Hypothesis HB : NoDup B.
  Hypothesis LB : length B = S (S (S k)).
  Hypothesis Hfac : forall x, In x B -> exists f, containsSimplex r f = true /\ sameset (basisOf r f) (drop x B).

  Definition facets : list name := filter (fun s => subsetn (basisOf r s) B) (simplicesOfOrder r (S k)).

  Lemma F_in f : In f facets <-> In f (simplicesOfOrder r (S k)) /\ incl (basisOf r f) B.
  Proof. unfold facets. rewrite filter_In, subsetn_incl. tauto. Qed.

  Lemma F_nodup : NoDup facets.
  Proof. apply NoDup_filter, simplicesOfOrder_nodup, P. Qed.

  Lemma F_ord f : In f facets -> exists j, assoc f (r_simp r) = Some (S k, j).
  Proof. intros H. apply F_in in H. now apply (listed_assoc r f (S k) (vinv_pinv r Hv)). Qed.

  Lemma F_contains f : In f facets -> containsSimplex r f = true.
  Proof. intros H. destruct (F_ord f H) as (j & A). exact (assoc_contains r f _ j A). Qed.

  Lemma F_missed f : In f facets -> exists m, In m B /\ forall x, In x (basisOf r f) <-> In x B /\ x <> m.
  Proof. apply (missed r Hv k facets F_ord B HB LB). intros g Hg. apply F_in in Hg. tauto. Qed.

  Lemma F_facet x : In x B -> exists f, In f facets /\ forall z, In z (basisOf r f) <-> In z B /\ z <> x.
  Proof.
    intros Hx. destruct (Hfac x Hx) as (f & Cf & Sf). exists f.
    assert (C : forall z, In z (basisOf r f) <-> In z B /\ z <> x) by (intros z; rewrite (Sf z); apply In_filter_neq).
    split; [|exact C]. apply F_in. split; [|intros z Hz; apply C in Hz; tauto].
    destruct (order_of_basis r f (drop x B) Hv Cf (NoDup_filter _ HB) Sf) as (j & A).
    replace (length (drop x B) - 1) with (S k) in A by (pose proof (drop_length x B HB Hx); lia).
    apply (listed_assoc r f (S k) P). eauto.
  Qed.

  Lemma F_same_missed f f' m : In f facets -> In f' facets ->
    (forall x, In x (basisOf r f) <-> In x B /\ x <> m) -> (forall x, In x (basisOf r f') <-> In x B /\ x <> m) -> f = f'.
  Proof. apply (same_missed r Hv k facets F_ord). Qed.

  Lemma F_length : length facets = S (S (S k)).
  Proof.
    apply Nat.le_antisymm.
    - rewrite <- LB.
      apply (pigeon (fun f m => In m B /\ forall x, In x (basisOf r f) <-> In x B /\ x <> m)); [exact F_nodup| |].
      + intros f Hf. destruct (F_missed f Hf) as (m & Hm & C). exists m. auto.
      + intros f f' m Hf Hf' [_ C] [_ C']. eapply F_same_missed; eauto.
    - rewrite <- LB.
      apply (pigeon (fun x f => forall z, In z (basisOf r f) <-> In z B /\ z <> x)); [exact HB| |].
      + intros x Hx. destruct (F_facet x Hx) as (f & Hf & C). exists f. auto.
      + intros x x' f Hx Hx' C C'. destruct (name_eq_dec x x') as [E|E]; [exact E|]. exfalso.
        assert (In x (basisOf r f)) by (apply C'; auto). apply C in H. tauto.
  Qed.

  (* every simplex is a face of none or of exactly two of the facets *)
  Lemma F_closed w : parity (map (fun f => memn w (faces r f)) facets) = false.
  Proof.
    rewrite parity_count, count_map.
    destruct (filter (fun f => memn w (faces r f)) facets) as [|f0 G'] eqn:EG; [reflexivity|].
    assert (InG : forall f, In f (f0 :: G') <-> In f facets /\ In w (faces r f)).
    { intros f. rewrite <- EG, filter_In, memn_In. reflexivity. }
    assert (NG : NoDup (f0 :: G')) by (rewrite <- EG; apply NoDup_filter; exact F_nodup).
    destruct (proj1 (InG f0) (or_introl eq_refl)) as [Hf0 Hw0].
    destruct (F_ord f0 Hf0) as (j0 & A0). destruct (F_missed f0 Hf0) as (m0 & Hm0 & C0).
    destruct (face_basis_char r Hv f0 k j0 w A0 Hw0) as (p & Hp & Cw).
    destruct (face_is_simplex r HS f0 w k j0 A0 Hw0) as (iw & Aw).
    assert (HpB : In p B) by (apply C0 in Hp; tauto).
    assert (Npm : p <> m0) by (apply C0 in Hp; tauto).
    destruct (F_facet p HpB) as (fb & Hfb & Cb). destruct (F_ord fb Hfb) as (jb & Ab).
    assert (Cw' : forall z, In z (basisOf r w) <-> In z B /\ z <> m0 /\ z <> p).
    { intros z. rewrite Cw, C0. tauto. }
    assert (Hwb : In w (faces r fb)).
    { destruct (subsets_are_simplices r Hv 1 fb (S k) jb (basisOf r w) Ab) as (u & Cu & Su & (u' & Hu' & Eu)).
      - apply basis_nodup; exact P.
      - intros z Hz. apply Cb. apply Cw' in Hz. tauto.
      - rewrite (v_card r Hv w k iw Aw). lia.
      - pose proof (v_card r Hv w k iw Aw) as L. destruct (basisOf r w); [discriminate|congruence].
      - simpl in Eu. subst u'. assert (u = w); [|now subst]. apply (v_uniq r Hv); auto. exact (assoc_contains r w k iw Aw). }
    assert (Nfb : f0 <> fb). { intros ->. apply Cb in Hp. tauto. }
    assert (SG : forall f, In f (f0 :: G') <-> In f [f0; fb]).
    { intros f. split.
      - intros Hf. apply InG in Hf. destruct Hf as [Hf Hwf]. destruct (F_ord f Hf) as (jf & Af).
        destruct (F_missed f Hf) as (m & Hm & C).
        pose proof (face_basis_sub r Hv f k jf w Af Hwf) as Sub.
        assert (Nmw : ~ In m (basisOf r w)) by (intros H; apply Sub in H; apply C in H; tauto).
        destruct (name_eq_dec m m0) as [->|N0]; [left; eapply F_same_missed; eauto|].
        destruct (name_eq_dec m p) as [->|Np]; [right; left; eapply F_same_missed; eauto|].
        exfalso. apply Nmw. apply Cw'. auto.
      - intros [<-|[<-|[]]]; [left; reflexivity|]. apply InG. auto. }
    rewrite (NoDup_same_length (f0 :: G') [f0; fb] NG); [reflexivity| |exact SG].
    exact (nodup2 f0 fb Nfb).
  Qed.

  (* so their positions are a combination that cps_order meets and _isClosed accepts *)
  Lemma F_comb : exists idxs, In idxs (combs (S (S (S k))) (seq 0 (length (simplicesOfOrder r (S k))))) /\
    cfs_of r k idxs = facets /\ isClosed (boundaryOperator r (S k)) idxs = true.
  Proof.
    set (l := simplicesOfOrder r (S k)).
    set (idxs := filter (fun i => subsetn (basisOf r (nth i l (NInt 0))) B) (seq 0 (length l))).
    assert (Ecfs : cfs_of r k idxs = facets) by apply (map_nth_filter_seq (fun s => subsetn (basisOf r s) B)).
    assert (Hin : In idxs (combs (S (S (S k))) (seq 0 (length l)))).
    { replace (S (S (S k))) with (length idxs); [apply filter_in_combs|].
      rewrite <- F_length, <- Ecfs. unfold cfs_of. now rewrite map_length. }
    exists idxs. split; [exact Hin|]. split; [exact Ecfs|].
    destruct (cfs_facts r k idxs P Hin) as (Hj & Hk & _).
    apply (closed_names r HS k Hk idxs Hj). rewrite Ecfs. exact F_closed.
  Qed.

  Lemma F_basis r' s : vinv r' -> (forall u, containsSimplex r u = true -> basisOf r' u = basisOf r u) ->
    containsSimplex r' s = true -> sameset (faces r' s) facets -> sameset (basisOf r' s) B.
  Proof.
    intros V' B' Cs Ss. apply containsSimplex_assoc in Cs. destruct Cs as (ks & j & As).
    destruct (b_b r' (v_b r' V') s ks j As) as [_ Bk]. pose proof F_length as LF.
    assert (Hks : 1 <= ks).
    { destruct ks as [|ks]; [|lia]. exfalso. unfold faces in Ss. rewrite As in Ss.
      destruct facets as [|f t]; [discriminate|]. apply (proj2 (Ss f)). now left. }
    intros p. rewrite (Bk Hks p). split.
    - intros (u & Hu & Hp). apply Ss in Hu. rewrite (B' u (F_contains u Hu)) in Hp. apply F_in in Hu. now apply Hu.
    - intros Hp. destruct (two_members B HB) as (a & b & Ha & Hb & Nab); [lia|].
      assert (Ex : exists x, In x B /\ x <> p) by (destruct (name_eq_dec a p) as [->|Na]; [exists b | exists a]; auto).
      destruct Ex as (x & Hx & Nx). destruct (F_facet x Hx) as (f & Hf & Cf).
      exists f. split; [now apply Ss|]. rewrite (B' f (F_contains f Hf)). apply Cf. auto.
  Qed.
End Facets.

Lemma all_orders_same_order r k fs : (forall f, In f fs -> exists j, assoc f (r_simp r) = Some (k, j)) ->
  all_orders r fs = Ok (repeat k (length fs)).
Proof.
  induction fs as [|f t IH]; intros H; [reflexivity|]. cbn [all_orders]. unfold orderOf.
  destruct (H f (or_introl eq_refl)) as (j & A). rewrite A. rewrite IH; [reflexivity|]. intros g Hg. apply H. now right.
Qed.

Lemma swf_total r fs : 2 <= length fs ->
  (forall f, In f fs -> exists j, assoc f (r_simp r) = Some (length fs - 1 - 1, j)) ->
  simplexWithFaces r fs =
  Ok (last (map Some (filter (fun s => seteq (faces r s) fs) (simplicesOfOrder r (length fs - 1)))) None).
Proof.
  intros Hl H. unfold simplexWithFaces.
  replace (length fs <=? 1) with false by (symmetry; apply Nat.leb_gt; lia).
  rewrite (all_orders_same_order r _ fs H).
  replace (forallb (fun o => o =? length fs - 1 - 1) (repeat (length fs - 1 - 1) (length fs))) with true; [reflexivity|].
  symmetry. apply forallb_forall. intros o Ho. apply repeat_spec in Ho. subst. apply Nat.eqb_refl.
Qed.

Lemma last_Some_In {A} (l : list A) q : last (map Some l) None = Some q -> In q l.
Proof.
  induction l as [|a t IH]; [discriminate|]. destruct t as [|b t'].
  - simpl. intros H. injection H as ->. now left.
  - intros H. right. apply IH. exact H.
Qed.

Lemma swf_some r fs q : simplexWithFaces r fs = Ok (Some q) ->
  In q (simplicesOfOrder r (length fs - 1)) /\ seteq (faces r q) fs = true.
Proof. intros H. apply swf_ok in H. symmetry in H. apply last_Some_In, filter_In in H. exact H. Qed.

(* position i of order k is among those the sweep was told of *)
Definition registered (nss : nssT) (k i : nat) : Prop := exists s, nss_get k nss = Some s /\ In i s.

Lemma nss_get_add k i nss j : nss_get j (nss_add k i nss) =
  if j =? k then Some (match nss_get k nss with Some s => if existsb (Nat.eqb i) s then s else s ++ [i] | None => [i] end)
  else nss_get j nss.
Proof.
  induction nss as [|[k' s] t IH]; simpl; [reflexivity|]. destruct (k =? k') eqn:E; simpl.
  - apply Nat.eqb_eq in E. subst k'. destruct (j =? k); reflexivity.
  - rewrite IH. destruct (j =? k') eqn:Ej, (j =? k) eqn:Ek; try reflexivity.
    apply Nat.eqb_eq in Ej, Ek. subst. rewrite Nat.eqb_refl in E. discriminate.
Qed.

Lemma nss_get_app k nss j :
  nss_get j (nss ++ [(k, [])]) = match nss_get j nss with Some s => Some s | None => if j =? k then Some [] else None end.
Proof. induction nss as [|[k' s] t IH]; simpl; [reflexivity|]. destruct (j =? k'); [reflexivity | exact IH]. Qed.

Lemma nss_get_add_same k i nss : registered (nss_add k i nss) k i.
Proof.
  unfold registered. rewrite nss_get_add, Nat.eqb_refl. eexists. split; [reflexivity|].
  destruct (nss_get k nss) as [s|]; [|now left]. destruct (existsb (Nat.eqb i) s) eqn:Ex; [|apply in_or_app; right; now left].
  apply existsb_exists in Ex. destruct Ex as (x & Hx & Ei). apply Nat.eqb_eq in Ei. now subst.
Qed.

Lemma nss_get_add_keep k i nss j x : registered nss j x -> registered (nss_add k i nss) j x.
Proof.
  intros (s & G & Hin). unfold registered. rewrite nss_get_add. destruct (j =? k) eqn:E; [|eauto].
  apply Nat.eqb_eq in E. subst j. rewrite G. eexists. split; [reflexivity|].
  destruct (existsb (Nat.eqb i) s); [exact Hin | apply in_or_app; now left].
Qed.

Lemma nss_maxkey_ge nss k s : In (k, s) nss -> k <= nss_maxkey nss.
Proof.
  unfold nss_maxkey. induction nss as [|[k' s'] t IH]; intros H; [destruct H|]. simpl.
  destruct H as [E|H]; [injection E as -> _; lia | specialize (IH H); lia].
Qed.

Lemma nss_get_In k : forall nss s, nss_get k nss = Some s -> In (k, s) nss.
Proof.
  induction nss as [|[k' s'] t IH]; intros s H; simpl in H; [discriminate|].
  destruct (k =? k') eqn:E; [apply Nat.eqb_eq in E; subst; injection H as <-; now left | right; now apply IH].
Qed.

Lemma registered_maxkey nss k i : registered nss k i -> k <= nss_maxkey nss.
Proof. intros (s & G & _). eapply nss_maxkey_ge. eapply nss_get_In; eauto. Qed.

Definition cps_step (bnd : mat) (k : nat) (newk1 : list nat) (acc : rep * nssT * nat * res unit) (fs : list nat)
  : rep * nssT * nat * res unit :=
  match acc with
  | (r', nss', maxk', Raise e) => acc
  | (r', nss', maxk', Ok _) =>
      if existsb (fun i => existsb (Nat.eqb i) newk1) fs && isClosed bnd fs then
        let cfs := map (fun i => nth i (simplicesOfOrder r' (k - 1)) (NInt 0)) fs in
        match c_simplexWithFaces r' cfs with
        | Raise e => (r', nss', maxk', Raise e)
        | Ok (Some _) => acc
        | Ok None =>
            match addSimplex r' cfs None None with
            | (r'', Raise e) => (r'', nss', maxk', Raise e)
            | (r'', Ok s) =>
                match indexOf r'' s with
                | Raise e => (r'', nss', maxk', Raise e)
                | Ok i => (r'', nss_add k i nss', Nat.max maxk' k, Ok tt)
                end
            end
        end
      else acc
  end.

Lemma cps_order_fold r k newk1 nss maxk :
  cps_order r k newk1 nss maxk =
  fold_left (cps_step (boundaryOperator r (k - 1)) k newk1)
            (combs (S k) (seq 0 (length (simplicesOfOrder r (k - 1))))) (r, nss, maxk, Ok tt).
Proof. reflexivity. Qed.

Definition clique (r : rep) (B : list name) : Prop := forall p q, In p B -> In q B -> p <> q -> edge_of r p q.
Definition carried (r : rep) (B : list name) : Prop := exists t, containsSimplex r t = true /\ sameset (basisOf r t) B.
Definition complete_at (r : rep) (n : nat) : Prop :=
  forall B, NoDup B -> length B = n -> clique r B -> carried r B.

Lemma ext2b_edges_fwd r r' p q : vinv r -> vinv r' -> ext2b r r' -> edge_of r p q -> edge_of r' p q.
Proof.
  intros Hv Hv' [E Bs] (e & He & Se). destruct (proj1 (listed_assoc r e 1 (vinv_pinv r Hv)) He) as (j & A).
  destruct (ext2_assoc r r' e 1 j E A) as (j' & A').
  exists e. split; [apply (listed_assoc r' e 1 (vinv_pinv r' Hv')); eauto|]. rewrite (Bs e (assoc_contains r e 1 j A)). exact Se.
Qed.

Lemma clique_ext r r' B : vinv r -> vinv r' -> ext2b r r' -> (clique r B <-> clique r' B).
Proof.
  intros Hv Hv' E. split; intros Cl p q Hp Hq Ne.
  - apply (ext2b_edges_fwd r r' p q Hv Hv' E). now apply Cl.
  - apply (ext2b_edges r r' p q Hv Hv' E). now apply Cl.
Qed.

Lemma carried_ext r r' B : ext2b r r' -> carried r B -> carried r' B.
Proof.
  intros [E Bs] (t & Ct & St). destruct (e_old r r' E t Ct) as (Ct' & _). exists t. split; [exact Ct'|].
  rewrite (Bs t Ct). exact St.
Qed.

Lemma drop_clique r x B : clique r B -> clique r (drop x B).
Proof. intros H p q Hp Hq. apply In_filter_neq in Hp, Hq. apply H; tauto. Qed.

Definition taint_descends (T : list name -> bool) (r : rep) : Prop :=
  forall B, NoDup B -> 2 <= length B -> clique r B -> carried r B \/ exists x, In x B /\ T (drop x B) = true.

Lemma taint_descends_ext T r r' : vinv r -> vinv r' -> ext2b r r' -> taint_descends T r -> taint_descends T r'.
Proof.
  intros Hv Hv' E H B HB LB Cl. apply (clique_ext r r' B Hv Hv' E) in Cl.
  destruct (H B HB LB Cl) as [Cb|Hx]; [left; exact (carried_ext r r' B E Cb) | right; exact Hx].
Qed.

Section Taint.
  Variable T : list name -> bool.

  (* a combination of positions counts when one of the simplices it stands for is tainted
     (the premise fs <> [] lets every combination count when everything is tainted) *)
  Definition counts (r : rep) (k0 : nat) (fs : list nat) : Prop :=
    fs <> [] -> exists f, In f (cfs_of r k0 fs) /\ T (basisOf r f) = true.

  (* The state (ra, nsa, ma) while order k0+2 is completed from (r, nss0, maxk0), `done` being the combinations
     processed so far: ra extends r by simplices of that order only; every closed combination in `done` that
     counts has its simplex; no tainted simplex has an order above ma, and ma moved only if order k0+2 has a
     simplex; the tainted simplices of order k0+2 are registered at their positions, under a key that exists;
     what was registered at other orders stays, and their listings are untouched. *)
  Record cinvT (r : rep) (k0 : nat) (nss0 : nssT) (maxk0 : nat) (done : list (list nat)) (ra : rep) (nsa : nssT) (ma : nat) : Prop := {
    ct_fl : fl r ra (S k0);
    ct_done : forall fs, In fs done -> counts r k0 fs ->
              isClosed (boundaryOperator r (S k0)) fs = true ->
              exists s, containsSimplex ra s = true /\ sameset (faces ra s) (cfs_of r k0 fs);
    ct_ord : forall s o j, assoc s (r_simp ra) = Some (o, j) -> T (basisOf ra s) = true -> o <= ma;
    ct_reg : forall i, i < length (simplicesOfOrder ra (S (S k0))) ->
             T (basisOf ra (nth i (simplicesOfOrder ra (S (S k0))) (NInt 0))) = true -> registered nsa (S (S k0)) i;
    ct_key : nss_get (S (S k0)) nsa <> None;
    ct_oth : forall j x, j <> S (S k0) -> registered nss0 j x -> registered nsa j x;
    ct_lst : forall j, j <> S (S k0) -> simplicesOfOrder ra j = simplicesOfOrder r j;
    ct_max : ma = maxk0 \/ (ma = Nat.max maxk0 (S (S k0)) /\ exists s j, assoc s (r_simp ra) = Some (S (S k0), j)) }.

  Section Order.
    Variables (r : rep) (k0 : nat) (newk1 : list nat).
    Hypothesis Hv : vinv r.
    Hypothesis Hnew : forall i, i < length (simplicesOfOrder r (S k0)) ->
      T (basisOf r (nth i (simplicesOfOrder r (S k0)) (NInt 0))) = true -> In i newk1.

    Lemma cps_step_okT nss0 maxk0 done ra nsa ma fs : cinvT r k0 nss0 maxk0 done ra nsa ma ->
      In fs (combs (S (S (S k0))) (seq 0 (length (simplicesOfOrder r (S k0))))) ->
      exists rb nsb mb,
        cps_step (boundaryOperator r (S k0)) (S (S k0)) newk1 (ra, nsa, ma, Ok tt) fs = (rb, nsb, mb, Ok tt) /\
        cinvT r k0 nss0 maxk0 (done ++ [fs]) rb nsb mb.
    Proof.
      intros [Fl Dn Od Rg Ky Ot Ls Mx] Hfs. pose proof Fl as [Va Ea La Ba]. pose proof (vinv_sinv ra Va) as HSa.
      destruct (cfs_facts r k0 fs (vinv_pinv r Hv) Hfs) as (Hj & Hk & Ncfs & Lcfs & Hcfs).
      (* when the state stays, the invariant needs only what it says of fs *)
      assert (Keep : (counts r k0 fs -> isClosed (boundaryOperator r (S k0)) fs = true ->
                      exists s, containsSimplex ra s = true /\ sameset (faces ra s) (cfs_of r k0 fs)) ->
                     cinvT r k0 nss0 maxk0 (done ++ [fs]) ra nsa ma).
      { intros H. constructor; auto. intros fs' Hin. apply in_app_or in Hin. destruct Hin as [Hin|[<-|[]]]; [now apply Dn | exact H]. }
      (* a combination with a tainted member passes the test of cps_step *)
      assert (Hsel : counts r k0 fs -> existsb (fun i => existsb (Nat.eqb i) newk1) fs = true).
      { intros Ht. destruct Ht as (f & Hf & Tf); [intros ->; discriminate|].
        apply in_map_iff in Hf. destruct Hf as (i & <- & Hi).
        apply existsb_exists. exists i. split; [exact Hi|]. apply existsb_exists. exists i. split; [|apply Nat.eqb_refl].
        apply Hnew; [now apply Hj | exact Tf]. }
      unfold cps_step.
      destruct (existsb (fun i => existsb (Nat.eqb i) newk1) fs) eqn:Enew; cbn [andb].
      2: { exists ra, nsa, ma. split; [reflexivity|]. apply Keep. intros Ht. apply Hsel in Ht. congruence. }
      destruct (isClosed (boundaryOperator r (S k0)) fs) eqn:Ecl.
      2: { exists ra, nsa, ma. split; [reflexivity|]. apply Keep. intros _ Hc. congruence. }
      replace (S (S k0) - 1) with (S k0) by lia. cbv zeta. rewrite La.
      fold (cfs_of r k0 fs). set (cfs := cfs_of r k0 fs) in *.
      assert (Hcfsa : forall f, In f cfs -> exists j, assoc f (r_simp ra) = Some (length cfs - 1 - 1, j)).
      { intros f Hf. destruct (Hcfs f Hf) as (j & A). rewrite Lcfs. exact (ext2_assoc r ra f (S k0) j Ea A). }
      unfold c_simplexWithFaces. destruct (simplexWithFaces ra cfs) as [[q|]|e] eqn:Eswf.
      3: { rewrite (swf_total ra cfs) in Eswf; [discriminate | lia | exact Hcfsa]. }
      - (* already there *)
        exists ra, nsa, ma. split; [reflexivity|]. apply Keep. intros _ _.
        apply swf_some in Eswf. destruct Eswf as [Hq Sq]. rewrite Lcfs in Hq.
        exists q. split; [|now apply seteq_sameset].
        exact (listed_contains ra q _ (vinv_pinv ra Va) Hq).
      - (* a new simplex *)
        destruct (addSimplex_succeeds ra cfs Ncfs) as (rb & s & Hadd); [lia | | exact Hcfsa | intros _; exact Eswf |].
        { assert (E : exists f, In f cfs) by (destruct cfs as [|f t]; [discriminate|exists f; now left]).
          destruct E as (f & Hf). destruct (Hcfsa f Hf) as (j & A). apply (pinv_pos_lt ra f _ j (s_p ra HSa)) in A. lia. }
        rewrite Hadd.
        destruct (addSimplex_effect ra cfs None None rb s HSa Hadd) as (_ & _ & _ & Hf & Hold' & Hall).
        assert (Flb : fl r rb (S k0)) by (apply (fl_step r k0 ra fs rb (Ok s) Hv Fl Hfs Ecl); rewrite La; assumption).
        pose proof (addSimplex_index ra cfs None None rb s HSa Hadd) as As.
        pose proof (addSimplex_listing ra cfs None None rb s HSa Hadd) as Lst.
        rewrite Lcfs in As, Lst. change (S (S (S k0)) - 1) with (S (S k0)) in As, Lst.
        unfold indexOf. rewrite As.
        exists rb, (nss_add (S (S k0)) (length (simplicesOfOrder ra (S (S k0)))) nsa), (Nat.max ma (S (S k0))).
        split; [reflexivity|]. constructor.
        + exact Flb.
        + intros fs' Hin Ht Hc. apply in_app_or in Hin. destruct Hin as [Hin|[<-|[]]].
          * destruct (Dn fs' Hin Ht Hc) as (s' & Cs' & Ss'). exists s'. destruct (Hold' s' Cs') as (_ & _ & F & _).
            split; [rewrite Hall, Cs'; reflexivity|]. now rewrite F.
          * exists s. split; [rewrite Hall, name_eqb_refl; apply orb_true_r | exact Hf].
        + intros s' o j A' Ht. pose proof (assoc_contains rb s' o j A') as C'.
          rewrite Hall in C'. apply orb_prop in C'. destruct C' as [C'|C'].
          * destruct (Hold' s' C') as (O' & _ & _ & B'). rewrite B' in Ht.
            assert (A'' : exists j', assoc s' (r_simp ra) = Some (o, j')) by (apply orderOf_assoc; rewrite <- O'; apply orderOf_assoc; eauto).
            destruct A'' as (j' & A''). pose proof (Od s' o j' A'' Ht). lia.
          * apply name_eqb_eq in C'. subst s'. rewrite As in A'. injection A' as <- _. lia.
        + intros i Hi Ht. rewrite (Lst (S (S k0))), Nat.eqb_refl in Hi, Ht. rewrite app_length in Hi. simpl in Hi.
          destruct (Nat.eq_dec i (length (simplicesOfOrder ra (S (S k0))))) as [->|Ne]; [apply nss_get_add_same|].
          apply nss_get_add_keep. assert (Hlt : i < length (simplicesOfOrder ra (S (S k0)))) by lia.
          apply (Rg i Hlt). rewrite app_nth1 in Ht by exact Hlt.
          destruct (Hold' _ (listed_contains ra _ _ (vinv_pinv ra Va) (nth_In _ (NInt 0) Hlt))) as (_ & _ & _ & Bq). now rewrite Bq in Ht.
        + rewrite nss_get_add, Nat.eqb_refl. discriminate.
        + intros j x Hjn Hr. apply nss_get_add_keep. now apply Ot.
        + intros j Hjn. rewrite (Lst j). replace (j =? S (S k0)) with false by (symmetry; now apply Nat.eqb_neq). now apply Ls.
        + right. split; [destruct Mx as [->|[-> _]]; lia | eauto].
    Qed.

    Lemma cps_fold_okT nss0 maxk0 : forall L0 done ra nsa ma,
      incl L0 (combs (S (S (S k0))) (seq 0 (length (simplicesOfOrder r (S k0))))) ->
      cinvT r k0 nss0 maxk0 done ra nsa ma ->
      exists r' nss' maxk',
        fold_left (cps_step (boundaryOperator r (S k0)) (S (S k0)) newk1) L0 (ra, nsa, ma, Ok tt) = (r', nss', maxk', Ok tt) /\
        cinvT r k0 nss0 maxk0 (done ++ L0) r' nss' maxk'.
    Proof.
      induction L0 as [|fs L0 IH]; intros done ra nsa ma HL Hc.
      - exists ra, nsa, ma. split; [reflexivity|]. now rewrite app_nil_r.
      - destruct (cps_step_okT nss0 maxk0 done ra nsa ma fs Hc (HL fs (or_introl eq_refl))) as (rb & nsb & mb & E & Hc').
        destruct (IH (done ++ [fs]) rb nsb mb (fun f H => HL f (or_intror H)) Hc') as (r' & nss' & maxk' & E' & Hc'').
        exists r', nss', maxk'. split; [cbn [fold_left]; rewrite E; exact E'|]. now rewrite <- app_assoc in Hc''.
    Qed.

    Theorem cps_order_completeT nss1 maxk :
      (forall s o j, assoc s (r_simp r) = Some (o, j) -> T (basisOf r s) = true -> o <= maxk) ->
      (forall i, i < length (simplicesOfOrder r (S (S k0))) ->
         T (basisOf r (nth i (simplicesOfOrder r (S (S k0))) (NInt 0))) = true -> registered nss1 (S (S k0)) i) ->
      nss_get (S (S k0)) nss1 <> None ->
      exists r' nss' maxk',
        cps_order r (S (S k0)) newk1 nss1 maxk = (r', nss', maxk', Ok tt) /\
        cinvT r k0 nss1 maxk (combs (S (S (S k0))) (seq 0 (length (simplicesOfOrder r (S k0))))) r' nss' maxk'.
    Proof.
      intros Hord Hreg Hkey. rewrite cps_order_fold. replace (S (S k0) - 1) with (S k0) by lia.
      apply (cps_fold_okT nss1 maxk _ [] r nss1 maxk); [apply incl_refl|].
      constructor; auto.
      - constructor; [exact Hv | apply ext2_refl; now apply vinv_sinv | reflexivity | reflexivity].
      - intros fs [].
    Qed.
  End Order.

  Hypothesis Ts : forall A B, sameset A B -> T A = T B.

  Theorem order_completeT r k0 nss maxk r' nss' maxk' : vinv r ->
    cinvT r k0 nss maxk (combs (S (S (S k0))) (seq 0 (length (simplicesOfOrder r (S k0))))) r' nss' maxk' ->
    complete_at r (S (S k0)) -> taint_descends T r -> complete_at r' (S (S (S k0))).
  Proof.
    intros Hv [Fl Dn _ _ _ _ _ _] Hc Hs B HB LB Cl. pose proof Fl as [V' E' _ B'].
    assert (Eb : ext2b r r') by (split; assumption).
    apply (clique_ext r r' B Hv V' Eb) in Cl.
    destruct (Hs B HB ltac:(lia) Cl) as [Cb|(x0 & Hx0 & Tx0)]; [exact (carried_ext r r' B Eb Cb)|].
    assert (Hfac : forall x, In x B -> exists f, containsSimplex r f = true /\ sameset (basisOf r f) (drop x B)).
    { intros x Hx. apply Hc; [now apply NoDup_filter | | now apply drop_clique]. pose proof (drop_length x B HB Hx). lia. }
    destruct (F_comb r Hv k0 B HB LB Hfac) as (idxs & Hin & Ecfs & Hcl).
    (* the facet without x0 is tainted, so the combination counted *)
    destruct (F_facet r Hv k0 B HB LB Hfac x0 Hx0) as (f0 & Hf0 & Cf0).
    destruct (Dn idxs Hin) as (s & Cs & Ss); [|exact Hcl|].
    { intros _. exists f0. rewrite Ecfs. split; [exact Hf0|]. rewrite <- Tx0. apply Ts.
      intros z. rewrite Cf0. symmetry. apply In_filter_neq. }
    rewrite Ecfs in Ss. exists s. split; [exact Cs|]. exact (F_basis r Hv k0 B HB LB Hfac r' s V' B' Cs Ss).
  Qed.

  (* tainted cliques of more than k+1 points would give, facet by facet, a tainted simplex of order k or more *)
  Lemma no_big_cliques r k : vinv r -> taint_descends T r -> complete_at r (S k) ->
    forall n, S k < n ->
    (forall s o j, assoc s (r_simp r) = Some (o, j) -> T (basisOf r s) = true -> k <= o -> S o < n -> False) ->
    complete_at r n.
  Proof.
    intros Hv Hs Hc n Hn Hno.
    assert (Gc : forall B, NoDup B -> k < length B -> length B < n -> T B = true -> carried r B -> False).
    { intros B HB L1 L2 Tb (t & Ct & St). destruct (order_of_basis r t B Hv Ct HB St) as (j & A).
      apply (Hno t _ j A); [now rewrite (Ts _ _ St) | lia | lia]. }
    assert (G : forall m B, NoDup B -> length B = S k + m -> S k + m < n -> clique r B -> T B = true -> False).
    { induction m as [|m IH]; intros B HB LB Ln Cl Tb.
      - apply (Gc B HB); [lia | lia | exact Tb | apply Hc; auto; lia].
      - destruct (Hs B HB ltac:(lia) Cl) as [Cb|(x & Hx & Tx)]; [apply (Gc B HB); auto; lia|].
        pose proof (drop_length x B HB Hx).
        apply (IH (drop x B)); [now apply NoDup_filter | lia | lia | now apply drop_clique | exact Tx]. }
    intros B HB LB Cl. destruct (Hs B HB ltac:(lia) Cl) as [Cb|(x & Hx & Tx)]; [exact Cb|]. exfalso.
    pose proof (drop_length x B HB Hx).
    apply (G (n - 1 - S k) (drop x B)); [now apply NoDup_filter | lia | lia | now apply drop_clique | exact Tx].
  Qed.

  Lemma order_le_points r s o j : vinv r -> assoc s (r_simp r) = Some (o, j) -> S o <= length (simplicesOfOrder r 0).
  Proof.
    intros Hv A. pose proof (vinv_pinv r Hv) as P.
    rewrite <- (v_card r Hv s o j A). apply NoDup_incl_length; [apply basis_nodup; exact P|].
    intros p Hp. destruct (a_basis_point r Hv s o j p A Hp) as (i & Ai). apply (listed_assoc r p 0 P). eauto.
  Qed.

  (* The state (r, nss) of the while loop at order k, started from c: r extends c by simplices of order >= 2 on c's
     points; every clique of at most k+1 points is carried; no tainted simplex has an order above maxk; the tainted
     simplices of order k and more are registered at their positions. *)
  Record loopI (c : rep) (k maxk : nat) (r : rep) (nss : nssT) : Prop := {
    li_v : vinv r;
    li_e : ext2b c r;
    li_p : simplicesOfOrder r 0 = simplicesOfOrder c 0;
    li_c : forall n, 2 <= n -> n <= S k -> complete_at r n;
    li_o : forall s o j, assoc s (r_simp r) = Some (o, j) -> T (basisOf r s) = true -> o <= maxk;
    li_r : forall j i, k <= j -> i < length (simplicesOfOrder r j) ->
           T (basisOf r (nth i (simplicesOfOrder r j) (NInt 0))) = true -> registered nss j i }.

  Lemma cps_loop_completeT c Mx : vinv c -> length (simplicesOfOrder c 0) <= Mx -> taint_descends T c ->
    forall fuel k maxk r nss, loopI c k maxk r nss -> 1 <= k -> k <= maxk + 2 -> maxk <= Mx -> Mx + 3 <= k + fuel ->
    exists r', cps_loop fuel k maxk r nss = (r', Ok tt) /\ vinv r' /\ ext2b c r' /\ forall n, 2 <= n -> complete_at r' n.
  Proof.
    intros Vc HMx Hs. induction fuel as [|f IH]; intros k maxk r nss I Hk Hkm Hm Hf; [lia|].
    pose proof I as [Vr Er Pr Cr Or Rr]. pose proof (taint_descends_ext T c r Vc Vr Er Hs) as Sr.
    cbn [cps_loop]. destruct (maxk + 1 <? k) eqn:Estop.
    - (* the loop ends *)
      apply Nat.ltb_lt in Estop. exists r. split; [reflexivity|]. split; [exact Vr|]. split; [exact Er|].
      intros n Hn. destruct (Nat.le_gt_cases n (S k)) as [Hle|Hgt]; [now apply Cr|].
      apply (no_big_cliques r k Vr Sr); [apply Cr; lia | exact Hgt|].
      intros s o j A Ht Ho _. pose proof (Or s o j A Ht). lia.
    - apply Nat.ltb_ge in Estop. replace (S k - 1) with k by lia.
      (* nothing registered at order k: no tainted simplex of that order, so no clique on k+2 points is left *)
      assert (Hskip : (forall i, registered nss k i -> False) -> loopI c (S k) maxk r nss).
      { intros Hno. constructor; auto.
        - intros n Hn Hle. destruct (Nat.eq_dec n (S (S k))) as [->|Ne]; [|apply Cr; lia].
          apply (no_big_cliques r k Vr Sr); [apply Cr; lia | lia|].
          intros s o j A Ht Ho Ho'. assert (o = k) by lia. subst o.
          destruct (assoc_nth r s k j (vinv_pinv r Vr) A) as [Hj En]. apply (Hno j), Rr; [lia | exact Hj | now rewrite En].
        - intros j i Hj. apply Rr. lia. }
      destruct (nss_get k nss) as [[|i0 newk1]|] eqn:Eget.
      + apply IH; try lia. apply Hskip. intros i (s & G & Hin). rewrite Eget in G. injection G as <-. destruct Hin.
      + (* an order to complete *)
        destruct k as [|k0]; [lia|].
        set (nss1 := match nss_get (S (S k0)) nss with Some _ => nss | None => nss ++ [(S (S k0), [])] end).
        assert (R1 : forall j x, registered nss j x -> registered nss1 j x).
        { intros j x H. unfold nss1. destruct (nss_get (S (S k0)) nss); [exact H|].
          destruct H as (s & G & Hin). exists s. now rewrite nss_get_app, G. }
        destruct (cps_order_completeT r k0 (i0 :: newk1) Vr) with (nss1 := nss1) (maxk := maxk) as (r1 & nss' & maxk' & Eo & Ck).
        * intros i Hi Ht. destruct (Rr (S k0) i (le_n _) Hi Ht) as (s & G & Hin). rewrite Eget in G. now injection G as <-.
        * exact Or.
        * intros i Hi Ht. apply R1. apply Rr; [lia | exact Hi | exact Ht].
        * unfold nss1. destruct (nss_get (S (S k0)) nss) eqn:E; [congruence | rewrite nss_get_app, E, Nat.eqb_refl; discriminate].
        * fold nss1. rewrite Eo.
          pose proof Ck as [Fl _ Od Rg _ Ot Ls Mxx]. pose proof Fl as [V1 E1 _ B1].
          assert (E1b : ext2b r r1) by (split; assumption).
          apply (IH (S (S k0)) maxk' r1 nss'); try lia.
          -- constructor.
             ++ exact V1.
             ++ eapply ext2b_trans; eauto.
             ++ rewrite (Ls 0) by lia. exact Pr.
             ++ intros n Hn Hle. destruct (Nat.eq_dec n (S (S (S k0)))) as [->|Ne].
                ** apply (order_completeT r k0 nss1 maxk r1 nss' maxk' Vr Ck); [apply Cr; lia | exact Sr].
                ** intros B HB LB Cl. apply (carried_ext r r1 B E1b). apply (Cr n Hn ltac:(lia) B HB LB).
                   now apply (clique_ext r r1 B Vr V1 E1b).
             ++ exact Od.
             ++ intros j i Hj Hi Ht. destruct (Nat.eq_dec j (S (S k0))) as [->|Ne]; [now apply Rg|].
                apply Ot; [exact Ne|]. apply R1. rewrite (Ls j Ne) in Hi, Ht. apply Rr; [lia | exact Hi|].
                rewrite <- (B1 _); [exact Ht | exact (listed_contains r _ j (vinv_pinv r Vr) (nth_In _ (NInt 0) Hi))].
          -- (* maxk never exceeds the number of points *)
             destruct Mxx as [->|[-> (s & j & As)]]; [lia|].
             pose proof (order_le_points r1 s _ j V1 As) as Lp. rewrite (Ls 0) in Lp by lia. rewrite Pr in Lp. lia.
      + apply IH; try lia. apply Hskip. intros i (s & G & Hin). rewrite Eget in G. discriminate.
  Qed.

  Lemma cps_unfold r nss : nss <> [] ->
    completePotentialSimplices r nss =
    cps_loop (nss_maxkey nss + length (simplicesOfOrder r 0) + 4) 1 (nss_maxkey nss) r nss.
  Proof. destruct nss; [congruence | reflexivity]. Qed.

  (* started with every tainted simplex of order >= 1 registered, the sweep ends normally and leaves the clique
     complex of c's edges.  The fuel is enough: maxk never exceeds max(maxkey, #points). *)
  Theorem cps_complete c nss : vinv c -> taint_descends T c -> nss <> [] ->
    (forall j i, 1 <= j -> i < length (simplicesOfOrder c j) ->
       T (basisOf c (nth i (simplicesOfOrder c j) (NInt 0))) = true -> registered nss j i) ->
    exists r', completePotentialSimplices c nss = (r', Ok tt) /\ vinv r' /\ ext2b c r' /\
      forall B, NoDup B -> 2 <= length B -> (carried r' B <-> clique c B).
  Proof.
    intros Vc Hs Hne Hr. rewrite (cps_unfold c nss Hne).
    destruct (cps_loop_completeT c (Nat.max (nss_maxkey nss) (length (simplicesOfOrder c 0))) Vc (Nat.le_max_r _ _) Hs
                (nss_maxkey nss + length (simplicesOfOrder c 0) + 4) 1 (nss_maxkey nss) c nss) as (r' & El & V' & E' & Call); try lia.
    { constructor; auto; [apply ext2b_refl; now apply vinv_sinv | |].
      - (* a clique on two points is an edge *)
        intros n Hn Hle B HB LB Cl. destruct B as [|p [|q [|x t]]]; simpl in LB; try lia.
        assert (Ne : p <> q) by (intros ->; inversion HB as [|? ? Hn' _]; apply Hn'; now left).
        destruct (Cl p q (or_introl eq_refl) (or_intror (or_introl eq_refl)) Ne) as (e & He & Se).
        exists e. split; [exact (listed_contains c e 1 (vinv_pinv c Vc) He) | exact Se].
      - (* a tainted simplex is registered, so its order is a key *)
        intros s o j A Ht. destruct o as [|o]; [lia|]. destruct (assoc_nth c s _ j (vinv_pinv c Vc) A) as [Hj En].
        apply (registered_maxkey nss _ j), Hr; [lia | exact Hj | now rewrite En]. }
    rewrite El. exists r'. split; [reflexivity|]. split; [exact V'|]. split; [exact E'|].
    intros B HB LB. rewrite (clique_ext c r' B Vc V' E'). split.
    - intros (t & Ct & St) p q Hp Hq Ne. apply (simplex_is_clique r' t p q V' Ct); [now apply St | now apply St | exact Ne].
    - exact (Call (length B) LB B HB eq_refl).
  Qed.
End Taint.

(* The case where everything is tainted, which is flagComplex's.  cinvK and loopT are cinvT and loopI at
   T := fun _ => true with the premises `true = true` dropped, and the four theorems stated over them are
   the general ones read at that T. *)
Record cinvK (r : rep) (k0 : nat) (nss0 : nssT) (maxk0 : nat) (done : list (list nat)) (ra : rep) (nsa : nssT) (ma : nat) : Prop := {
  ck_fl : fl r ra (S k0);
  ck_done : forall fs, In fs done -> isClosed (boundaryOperator r (S k0)) fs = true ->
            exists s, containsSimplex ra s = true /\ sameset (faces ra s) (cfs_of r k0 fs);
  ck_ord : forall s o j, assoc s (r_simp ra) = Some (o, j) -> o <= ma;
  ck_reg : forall i, i < length (simplicesOfOrder ra (S (S k0))) -> registered nsa (S (S k0)) i;
  ck_key : nss_get (S (S k0)) nsa <> None;
  ck_oth : forall j x, j <> S (S k0) -> registered nss0 j x -> registered nsa j x;
  ck_lst : forall j, j <> S (S k0) -> simplicesOfOrder ra j = simplicesOfOrder r j;
  ck_max : ma = maxk0 \/ (ma = Nat.max maxk0 (S (S k0)) /\ exists s j, assoc s (r_simp ra) = Some (S (S k0), j)) }.

Lemma cinvK_iff r k0 nss0 maxk0 done ra nsa ma :
  cinvK r k0 nss0 maxk0 done ra nsa ma <-> cinvT (fun _ => true) r k0 nss0 maxk0 done ra nsa ma.
Proof.
  split; intros [Fl Dn Od Rg Ky Ot Ls Mx]; constructor; eauto.
  intros fs Hin. apply (Dn fs Hin). intros Hne. destruct fs as [|i t]; [congruence|]. eexists. split; [now left | reflexivity].
Qed.

Lemma taint_descends_all r : taint_descends (fun _ => true) r.
Proof. intros B _ LB _. right. destruct B as [|x t]; [simpl in LB; lia|]. exists x. split; [now left | reflexivity]. Qed.

Lemma cps_step_ok r k0 newk1 nss0 maxk0 done ra nsa ma fs : vinv r ->
  (forall i, i < length (simplicesOfOrder r (S k0)) -> In i newk1) ->
  cinvK r k0 nss0 maxk0 done ra nsa ma ->
  In fs (combs (S (S (S k0))) (seq 0 (length (simplicesOfOrder r (S k0))))) ->
  exists rb nsb mb,
    cps_step (boundaryOperator r (S k0)) (S (S k0)) newk1 (ra, nsa, ma, Ok tt) fs = (rb, nsb, mb, Ok tt) /\
    cinvK r k0 nss0 maxk0 (done ++ [fs]) rb nsb mb.
Proof.
  intros Hv Hnew Hc Hfs. apply cinvK_iff in Hc.
  destruct (cps_step_okT (fun _ => true) r k0 newk1 Hv (fun i Hi _ => Hnew i Hi) nss0 maxk0 done ra nsa ma fs Hc Hfs)
    as (rb & nsb & mb & E & Hc').
  exists rb, nsb, mb. split; [exact E | now apply cinvK_iff].
Qed.

Theorem cps_order_complete r k0 newk1 nss1 maxk : vinv r ->
  (forall i, i < length (simplicesOfOrder r (S k0)) -> In i newk1) ->
  (forall s o j, assoc s (r_simp r) = Some (o, j) -> o <= maxk) ->
  (forall i, i < length (simplicesOfOrder r (S (S k0))) -> registered nss1 (S (S k0)) i) ->
  nss_get (S (S k0)) nss1 <> None ->
  exists r' nss' maxk',
    cps_order r (S (S k0)) newk1 nss1 maxk = (r', nss', maxk', Ok tt) /\
    cinvK r k0 nss1 maxk (combs (S (S (S k0))) (seq 0 (length (simplicesOfOrder r (S k0))))) r' nss' maxk'.
Proof.
  intros Hv Hnew Hord Hreg Hkey.
  destruct (cps_order_completeT (fun _ => true) r k0 newk1 Hv (fun i Hi _ => Hnew i Hi) nss1 maxk) as (r' & nss' & maxk' & E & Hc); eauto.
  exists r', nss', maxk'. split; [exact E | now apply cinvK_iff].
Qed.

Theorem order_complete r k0 nss maxk L r' nss' maxk' : vinv r ->
  L = combs (S (S (S k0))) (seq 0 (length (simplicesOfOrder r (S k0)))) ->
  cinvK r k0 nss maxk L r' nss' maxk' ->
  complete_at r (S (S k0)) -> complete_at r' (S (S (S k0))).
Proof.
  intros Hv -> Hc Hk.
  exact (order_completeT (fun _ => true) (fun _ _ _ => eq_refl) r k0 nss maxk r' nss' maxk' Hv
           (proj1 (cinvK_iff r k0 nss maxk _ r' nss' maxk') Hc) Hk (taint_descends_all r)).
Qed.

Record loopT (c : rep) (k maxk : nat) (r : rep) (nss : nssT) : Prop := {
  lt_v : vinv r;
  lt_e : ext2b c r;
  lt_p : simplicesOfOrder r 0 = simplicesOfOrder c 0;
  lt_c : forall n, 2 <= n -> n <= S k -> complete_at r n;
  lt_o : forall s o j, assoc s (r_simp r) = Some (o, j) -> o <= maxk;
  lt_r : forall j i, k <= j -> i < length (simplicesOfOrder r j) -> registered nss j i }.

Lemma cps_loop_complete c Mx : vinv c -> length (simplicesOfOrder c 0) <= Mx ->
  forall fuel k maxk r nss, loopT c k maxk r nss -> 1 <= k -> k <= maxk + 2 -> maxk <= Mx -> Mx + 3 <= k + fuel ->
  exists r', cps_loop fuel k maxk r nss = (r', Ok tt) /\ vinv r' /\ ext2b c r' /\ forall n, 2 <= n -> complete_at r' n.
Proof.
  intros Vc HMx fuel k maxk r nss [Vr Er Pr Cr Or Rr].
  apply (cps_loop_completeT (fun _ => true) (fun _ _ _ => eq_refl) c Mx Vc HMx (taint_descends_all c)). constructor; eauto.
Qed.

Lemma nss_get_map (g : nat -> list nat) j : forall l, In j l -> nss_get j (map (fun k => (k, g k)) l) = Some (g j).
Proof.
  induction l as [|a t IH]; intros H; [destruct H|]. simpl. destruct (j =? a) eqn:E.
  - apply Nat.eqb_eq in E. now subst.
  - apply IH. destruct H as [->|H]; [rewrite Nat.eqb_refl in E; discriminate | exact H].
Qed.

Lemma flag_seed_registered c j i : 1 <= j -> i < length (simplicesOfOrder c j) -> registered (flag_seed c) j i.
Proof.
  intros Hj Hi. unfold flag_seed, registered. cbn [nss_get].
  destruct (j =? 1) eqn:E.
  - apply Nat.eqb_eq in E. subst j. exists (seq 0 (length (simplicesOfOrder c 1))). split; [reflexivity|]. apply in_seq. lia.
  - apply Nat.eqb_neq in E. pose proof (sOO_nonempty_lt c j i Hi) as Hl.
    rewrite (nss_get_map (fun k => seq 0 (length (simplicesOfOrder c k))) j); [|apply in_seq; lia].
    eexists. split; [reflexivity|]. apply in_seq. lia.
Qed.

(* C11: flagComplex never fails on a complex that meets the vertex-set reading (once its copy is
   made), and afterwards every set of two or more points that are pairwise joined by an edge of the
   source carries a simplex *)
Theorem flagComplex_complete hp src uid hp1 c : vinv src -> copy_new hp (view_of src) uid = (hp1, c, Ok tt) ->
  exists r', flagComplex hp src uid = (hp1, r', Ok tt) /\ vinv r' /\
    forall B, NoDup B -> 2 <= length B -> clique src B -> carried r' B.
Proof.
  intros Hv E0. unfold flagComplex. rewrite E0.
  destruct (copy_vinv hp src uid hp1 c Hv E0) as [Vc Bc].
  destruct (cps_complete (fun _ => true) (fun _ _ _ => eq_refl) c (flag_seed c) Vc (taint_descends_all c))
    as (r' & El & V' & _ & Call).
  - unfold flag_seed. discriminate.
  - intros j i Hj Hi _. now apply flag_seed_registered.
  - rewrite El. exists r'. split; [reflexivity|]. split; [exact V'|].
    intros B HB LB Cl. apply (Call B HB LB).
    (* the copy has the edges of the source *)
    intros p q Hp Hq Ne. destruct (Cl p q Hp Hq Ne) as (e & He & Se).
    rewrite <- (copy_listing_per_order hp src uid hp1 c (vinv_cinv src Hv) E0 1) in He.
    exists e. split; [exact He|]. intros z. rewrite <- (Se z). apply Bc.
    exact (listed_contains c e 1 (vinv_pinv c Vc) He).
Qed.

(* C11, both directions: the flag complex is the clique complex of the 1-skeleton of its source *)
Theorem flagComplex_is_clique_complex hp src uid hp1 c : vinv src -> copy_new hp (view_of src) uid = (hp1, c, Ok tt) ->
  exists r', flagComplex hp src uid = (hp1, r', Ok tt) /\ vinv r' /\
    forall B, NoDup B -> 2 <= length B -> (carried r' B <-> clique src B).
Proof.
  intros Hv E0. destruct (flagComplex_complete hp src uid hp1 c Hv E0) as (r' & Ef & V' & Cc).
  exists r'. split; [exact Ef|]. split; [exact V'|]. intros B HB LB. split; [|now apply Cc].
  intros (t & Ct & St) p q Hp Hq Ne.
  destruct (flagComplex_sound hp src uid hp1 r' Hv Ef) as [_ Sd].
  apply (Sd t p q Ct); [now apply St | now apply St | exact Ne].
Qed.

(* "whenever all facets of a possible simplex are present the simplex is too" *)
Theorem flagComplex_fills_facets hp src uid hp1 c : vinv src -> copy_new hp (view_of src) uid = (hp1, c, Ok tt) ->
  exists r', flagComplex hp src uid = (hp1, r', Ok tt) /\
    forall B, NoDup B -> 3 <= length B -> (forall x, In x B -> carried r' (drop x B)) -> carried r' B.
Proof.
  intros Hv E0. destruct (flagComplex_is_clique_complex hp src uid hp1 c Hv E0) as (r' & Ef & V' & Iff).
  exists r'. split; [exact Ef|]. intros B HB LB Hfac. apply Iff; [exact HB | lia|].
  intros p q Hp Hq Ne.
  (* a third point x: p and q both lie in the facet that drops x *)
  assert (Ex : exists x, In x (drop p (drop q B))).
  { pose proof (drop_length q B HB Hq). assert (Hp' : In p (drop q B)) by (apply In_filter_neq; auto).
    pose proof (drop_length p (drop q B) (NoDup_filter _ HB) Hp'). destruct (drop p (drop q B)) as [|x t]; [simpl in *; lia|].
    exists x. now left. }
  destruct Ex as (x & Hx). apply In_filter_neq in Hx. destruct Hx as [Hx Nxp]. apply In_filter_neq in Hx. destruct Hx as [Hx Nxq].
  assert (Ld : 2 <= length (drop x B)) by (pose proof (drop_length x B HB Hx); lia).
  apply (proj1 (Iff (drop x B) (NoDup_filter _ HB) Ld) (Hfac x Hx)); try (apply In_filter_neq; split; auto). exact Ne.
Qed.
