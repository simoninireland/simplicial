(* AtomicAwb.v -- C05: addSimplexWithBasis on a basis that already defines a simplex is rejected with KeyError and
   changes nothing observable (the only thing that may move is the allocation counter of attribute dictionaries).
   Plain Coq. *)
From Coq Require Import String ZArith Bool Arith List Lia.
From SV Require Import Names NamesFacts ListFacts Rep Fresh Complex Atomic.
Import ListNotations.

Lemma lookup_after_alloc r bs : c_simplexWithBasis (fst (alloc r)) bs false = c_simplexWithBasis r bs false.
Proof. apply lookup_same_obs. apply same_obs_alloc. Qed.

Theorem addSimplexWithBasis_existing_basis r bs id attr s : bs <> [] ->
  c_simplexWithBasis r bs false = Ok (Some s) ->
  exists r', c_addSimplexWithBasis r bs id attr = (r', Raise KeyError) /\ same_obs r r'.
Proof.
  intros Hne Hl. unfold c_addSimplexWithBasis, addSimplexWithBasis. destruct bs as [|b bs]; [congruence|].
  set (B := b :: bs) in *.
  destruct (match id with Some n => containsSimplex r n || ((0 <? length B - 1) && memn n B) | None => false end).
  - exists r. split; [reflexivity|apply same_obs_refl].
  - destruct attr as [h|].
    + fold (c_simplexWithBasis r B false). rewrite Hl. exists r. split; [reflexivity|apply same_obs_refl].
    + destruct (alloc r) as [r1 h] eqn:Ea.
      assert (E1 : c_simplexWithBasis r1 B false = Ok (Some s)).
      { pose proof (lookup_after_alloc r B) as X. rewrite Ea in X. simpl in X. now rewrite X. }
      fold (c_simplexWithBasis r1 B false). rewrite E1. exists r1. split; [reflexivity|].
      pose proof (same_obs_alloc r) as X. now rewrite Ea in X.
Qed.
