(* ZBoundary.v -- every chain returned by Z() has empty boundary() through the public call (C07). *)
From Coq Require Import String ZArith Bool Arith List Lia.
From SV Require Import Names NamesFacts Rep Complex Homology ListMat SnfCount RepInv Shapes Incidence ZCycles ZProofs2 TwoOnes DD.
From SV Require ZProofs.
Import ListNotations.
Open Scope nat_scope.

(* a property of labels that [] has and ++ keeps survives a reduction step; used for "contains only names of the listing" *)
Section Labels.
  Variable Q : list name -> Prop.
  Hypothesis Qnil : Q [].
  Hypothesis Qapp : forall a b, Q a -> Q b -> Q (a ++ b).

  Lemma Forall_set_nth {A} (R : A -> Prop) (l : list A) : forall i x, Forall R l -> R x -> Forall R (set_nth i x l).
  Proof.
    induction l as [|a l IH]; intros i x Hl Hx; [destruct i; constructor|].
    inversion Hl as [|? ? Ha Hl']; subst. destruct i; simpl; constructor; auto.
  Qed.
  Lemma Forall_nth' {A} (R : A -> Prop) (l : list A) d i : Forall R l -> R d -> R (nth i l d).
  Proof.
    revert i. induction l as [|a l IH]; intros i Hl Hd; [destruct i; exact Hd|].
    inversion Hl as [|? ? Ha Hl']; subst. destruct i; simpl; auto.
  Qed.
  Lemma Forall_mapi_from {A} (R : A -> Prop) (f : nat -> A -> A) : (forall j c, R c -> R (f j c)) ->
    forall l i, Forall R l -> Forall R (mapi_from i f l).
  Proof.
    intros Hf. induction l as [|a l IH]; intros i Hl; simpl; [constructor|].
    inversion Hl as [|? ? Ha Hl']; subst. constructor; auto.
  Qed.

  Lemma step_Q x k l M (cls : list (list name)) : Forall Q cls -> Forall Q (snd (reduce_step x k l M cls)).
  Proof.
    intros H. unfold reduce_step. cbn [snd].
    assert (H2 : Forall Q (swap [] x l cls)).
    { unfold swap. apply Forall_set_nth; [apply Forall_set_nth; auto|]; apply Forall_nth'; auto. }
    unfold mapi. apply Forall_mapi_from; auto.
    intros j c Hc. destruct (_ && _); auto. apply Qapp; auto. apply Forall_nth'; auto.
  Qed.
End Labels.

Lemma Z1_members r k ch : In ch (Z1 r k) -> incl ch (simplicesOfOrder r k).
Proof.
  intros H. destruct (ZProofs.Z1_spec r k) as (A & cls' & ER & _ & _ & EZ).
  set (B := boundaryOperator r k) in *. set (names := simplicesOfOrder r k) in *.
  assert (F : Forall (fun c => incl c names) (snd (reduceB (nrows B) (ncols B) (rows_of B) (map (fun s => [s]) names)))).
  { apply (reduce_keeps (nrows B) (ncols B) name (fun _ => Forall (fun c => incl c names))).
    - intros. apply step_Q; auto using incl_nil_l, incl_app.
    - apply wfm_rows_of.
    - apply Forall_forall. intros c Hc. apply in_map_iff in Hc. destruct Hc as (s & <- & Hs). intros x [<-|[]]. exact Hs. }
  rewrite ER, Forall_forall in F. apply F. rewrite <- (firstn_skipn (Betti.rk B) cls'), <- EZ. apply in_or_app. now right.
Qed.

Lemma vsum_parity (val : name -> nat -> bool) l i : vsum name val l i = parity (map (fun s => val s i) l).
Proof. unfold vsum. induction l as [|a l IH]; [reflexivity|]. cbn [fold_right map parity]. now rewrite IH. Qed.

Theorem Z1_boundary_empty r k ch : sinv r -> In ch (Z1 r k) -> boundary r ch = Ok [].
Proof.
  intros HS Hin. pose proof (s_p r HS) as P.
  pose proof (Z1_members r k ch Hin) as Hm.
  assert (Hord : forall s, In s ch -> exists i, assoc s (r_simp r) = Some (k, i)).
  { intros s Hs. apply (listed_assoc r s k P), Hm, Hs. }
  apply (boundary_empty r ch k Hord). intros w Hk0. destruct k as [|k]; [lia|]. clear Hk0.
  destruct ch as [|s0 ch0]; [reflexivity|].
  destruct (index_of w (simplicesOfOrder r k)) as [i|] eqn:Ew.
  - (* w is the i-th k-simplex: the sum is row i of the sum of the columns named by ch *)
    apply index_of_some in Ew.
    assert (Hi : i < nrows (boundaryOperator r (S k))).
    { assert (Lk : S k < r_nord r).
      { destruct (Hord s0 (or_introl eq_refl)) as (i0 & A0). exact (proj1 (pinv_pos_lt r s0 (S k) i0 P A0)). }
      rewrite (boundary_nrows r k HS Lk). apply nth_error_Some. congruence. }
    pose proof (Z1_cycles r (S k) _ (simplicesOfOrder_nodup r (S k) P) (boundary_ncols r (S k) HS) Hin i Hi) as Hz.
    rewrite vsum_parity in Hz. rewrite <- Hz. apply parity_ext. intros s Hs.
    unfold colval. pose proof (Hm s Hs) as Hsn. apply In_nth_error in Hsn. destruct Hsn as (t & Ht).
    rewrite (index_of_nth s _ t (simplicesOfOrder_nodup r (S k) P) Ht).
    rewrite (entry_rows_of _ i t Hi). fold (mentry (boundaryOperator r (S k)) i t).
    apply eq_true_iff_eq. rewrite memn_In. symmetry. exact (boundary_entries r k i t s w HS Ht Ew).
  - (* w is no k-simplex: it is a face of no member *)
    apply index_of_none in Ew. rewrite (parity_ext _ (fun _ => false)); [apply parity_false|].
    intros s Hs. destruct (Hord s Hs) as (j & As). apply memn_false. intros Hf.
    destruct (face_is_simplex r HS s w k j As Hf) as (i & Aw). apply Ew, (listed_assoc r w k P). eauto.
Qed.
