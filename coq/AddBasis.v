(* AddBasis.v -- the basis of a newly added simplex: the point itself for a point, the union of the
   bases of its faces otherwise (C03: "the basis of a simplex is the set of points in its
   closure" is kept by addSimplex).  Plain Coq. *)
From Coq Require Import String ZArith Bool Arith List Lia.
From SV Require Import Names NamesFacts ListFacts Rep Fresh Complex Atomic RepInv Shapes Incidence AddEffect.
Import ListNotations.
Open Scope nat_scope.

Lemma In_names_of_col_sub names col x : In x (names_of_col names col) -> In x names.
Proof. intros H. apply In_names_of_col in H. destruct H as (i & Hi & _). eapply nth_error_In; eauto. Qed.

Lemma here_new_basis r fs n h k : sinv r -> k < r_nord r -> containsSimplex r n = false ->
  match k with
  | 0 => basisOf (add_final (pad r k) fs n h k) n = [n]
  | S _ => forall p, In p (basisOf (add_final (pad r k) fs n h k) n) <-> exists f, In f fs /\ In p (basisOf r f)
  end.
Proof.
  intros HS Hk Hnew.
  assert (As' : assoc n (r_simp (add_final (pad r k) fs n h k)) = Some (k, length (idxk r k))).
  { rewrite (here_simp r fs n h k HS Hk). now apply assoc_new, containsSimplex_false_assoc. }
  unfold basisOf. rewrite As'. fold (idxk (add_final (pad r k) fs n h k) 0). fold (bask (add_final (pad r k) fs n h k) k).
  rewrite (here_idxk r fs n h k HS Hk 0), (here_bask r fs n h k HS Hk k Hk).
  pose proof (sinv_bas_dims r k HS Hk) as D. destruct k as [|k'].
  - destruct (dims_app_zero_row _ _ _ D) as (_ & _ & Hc). cbn [Nat.eqb]. rewrite <- Hc, getcol_app_col_new, Hc.
    apply names_of_col_last.
  - destruct D as (_ & _ & Hc). cbn [Nat.eqb]. rewrite Nat.eqb_refl, <- Hc, getcol_app_col_new. intros p.
    rewrite In_names_of_col_mark, in_flat_map. split; [tauto|]. intros (f & Hf & Hp). split; [|eauto].
    unfold basisOf in Hp. destruct (assoc f (r_simp r)) as [[kf jf]|]; [|destruct Hp]. eapply In_names_of_col_sub; eauto.
Qed.

Section NewBasisHigher.
  Variables (r2 : rep) (fs : list name) (n : name) (h : handle) (k k' : nat).
  Hypothesis Hinv : sinv r2.
  Hypothesis Ek : k = S k'.
  Hypothesis Hk : k <= r_nord r2.
  Hypothesis Hnew : containsSimplex r2 n = false.

  Let rz := add_struct_hi r2 k k'.
  Let r' := add_final_hi rz fs n h k k'.

  Theorem hi_new_basis p : In p (basisOf r' n) <-> exists f, In f fs /\ In p (basisOf r2 f).
  Proof.
    unfold r', rz. revert Hk. rewrite Ek, <- add_hi_eq. intros Hk'.
    destruct (add_struct_wlog r2 (S k') Hinv Hk') as (rg & -> & HSg & Hkg & Hsimp & Hq).
    assert (Hn : containsSimplex rg n = false) by (unfold containsSimplex; rewrite Hsimp; exact Hnew).
    rewrite (here_new_basis rg fs n h (S k') HSg Hkg Hn p).
    split; intros (f & Hf & Hp); exists f; (split; [exact Hf|]).
    - now rewrite <- (proj2 (Hq f)).
    - now rewrite (proj2 (Hq f)).
  Qed.
End NewBasisHigher.

Section NewBasisVertex.
  Variables (r2 : rep) (n : name) (h : handle).
  Hypothesis Hinv : sinv r2.
  Hypothesis Hnew : containsSimplex r2 n = false.

  Let r' := add_final (add_struct r2 0) [] n h 0.

  Theorem v_new_basis : basisOf r' n = [n].
  Proof.
    unfold r'. destruct (add_struct_wlog r2 0 Hinv (Nat.le_0_l _)) as (rg & -> & HSg & Hkg & Hsimp & _).
    apply (here_new_basis rg [] n h 0 HSg Hkg). unfold containsSimplex. rewrite Hsimp. exact Hnew.
  Qed.
End NewBasisVertex.

Theorem addSimplex_new_basis r fs id attr r' n : sinv r -> addSimplex r fs id attr = (r', Ok n) ->
  (forall f, In f fs -> containsSimplex r f = true) /\
  ((fs = [] /\ basisOf r' n = [n]) \/
   (2 <= length fs /\ forall p, In p (basisOf r' n) <-> exists f, In f fs /\ In p (basisOf r f))).
Proof.
  intros HS H. apply addSimplex_eq2 in H. destruct H as (r2 & h & Hs & Hc2 & _ & Hchk & Hk0 & Hk & ->).
  assert (Hinv2 : sinv r2) by (eapply sinv_same_obs; eauto).
  destruct (same_obs_queries r r2 Hs) as (_ & _ & _ & _ & Qb & Qc & _). split.
  - intros f Hf. destruct (check_faces_ok_orders r2 _ fs Hchk f Hf) as (fo & fi & Af & _).
    rewrite <- Qc. exact (assoc_contains r2 f fo fi Af).
  - destruct (length fs - 1) as [|k'] eqn:Ek.
    + left. rewrite (Hk0 eq_refl). split; [reflexivity|]. apply (v_new_basis r2 n h Hinv2 Hc2).
    + right. split; [lia|]. intros p. rewrite add_hi_eq, (hi_new_basis r2 fs n h (S k') k' Hinv2 eq_refl Hk Hc2 p).
      now setoid_rewrite Qb.
Qed.
