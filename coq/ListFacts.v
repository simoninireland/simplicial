(* ListFacts.v -- facts about the list helpers of Names.v (set_nth, upd_nth, remove_nth) and
   nth / nth_error.  Plain Coq. *)
From Coq Require Import String ZArith Bool Arith List Lia.
From SV Require Import Names NamesFacts.
Import ListNotations.
Open Scope nat_scope.

(* comparisons whose outcome is known: used as [rewrite ltb_true by lia] *)
Lemma ltb_true a b : a < b -> (a <? b) = true.
Proof. apply Nat.ltb_lt. Qed.
Lemma ltb_false a b : b <= a -> (a <? b) = false.
Proof. apply Nat.ltb_ge. Qed.
Lemma leb_true a b : a <= b -> (a <=? b) = true.
Proof. apply Nat.leb_le. Qed.
Lemma leb_false a b : b < a -> (a <=? b) = false.
Proof. apply Nat.leb_gt. Qed.
Lemma eqb_false a b : a <> b -> (a =? b) = false.
Proof. apply Nat.eqb_neq. Qed.

Lemma length_set_nth {A} (i : nat) (x : A) (l : list A) : length (set_nth i x l) = length l.
Proof. revert i; induction l as [|h t IH]; intros [|i]; simpl; auto. Qed.

Lemma nth_set_nth {A} (d : A) (l : list A) : forall i k x,
  nth k (set_nth i x l) d = if (k =? i) && (i <? length l) then x else nth k l d.
Proof.
  induction l as [|h t IH]; intros [|i] [|k] x; simpl; auto.
  - destruct (k =? i); reflexivity.
  - rewrite IH. reflexivity.
Qed.

Lemma nth_error_set_nth {A} (l : list A) : forall i k x,
  nth_error (set_nth i x l) k = if (k =? i) && (i <? length l) then Some x else nth_error l k.
Proof.
  induction l as [|h t IH]; intros [|i] [|k] x; simpl; auto.
  - destruct (k =? i); reflexivity.
  - rewrite IH. reflexivity.
Qed.

Lemma length_upd_nth {A} i (f : A -> A) d l : length (upd_nth i f d l) = length l.
Proof. unfold upd_nth. apply length_set_nth. Qed.

Lemma nth_upd_nth {A} (d : A) l i k f :
  nth k (upd_nth i f d l) d = if (k =? i) && (i <? length l) then f (nth i l d) else nth k l d.
Proof. unfold upd_nth. apply nth_set_nth. Qed.

Lemma nth_upd_nth_same {A} (d : A) l i f : i < length l -> nth i (upd_nth i f d l) d = f (nth i l d).
Proof. intros H. rewrite nth_upd_nth, Nat.eqb_refl. apply Nat.ltb_lt in H. now rewrite H. Qed.

Lemma nth_upd_nth_other {A} (d : A) l i k f : k <> i -> nth k (upd_nth i f d l) d = nth k l d.
Proof. intros H. rewrite nth_upd_nth. apply Nat.eqb_neq in H. now rewrite H. Qed.

Lemma length_remove_nth {A} (l : list A) : forall i, i < length l -> length (remove_nth i l) = length l - 1.
Proof.
  induction l as [|h t IH]; intros [|i] H; simpl in *; try lia.
  rewrite IH by lia. destruct t; simpl in *; lia.
Qed.

Lemma remove_nth_overflow {A} (l : list A) : forall i, length l <= i -> remove_nth i l = l.
Proof. induction l as [|h t IH]; intros [|i] H; simpl in *; auto; try lia. f_equal. apply IH. lia. Qed.

Lemma nth_error_remove_nth {A} (l : list A) : forall i j,
  nth_error (remove_nth i l) j = if j <? i then nth_error l j else nth_error l (S j).
Proof.
  induction l as [|h t IH]; intros [|i] [|j]; simpl; try reflexivity.
  all: try (destruct (j <? i); destruct j; reflexivity).
  all: try (rewrite IH; reflexivity).
  all: try (destruct (S j <? S i); reflexivity).
Qed.

Lemma nth_remove_nth {A} (d : A) (l : list A) : forall i j,
  nth j (remove_nth i l) d = if j <? i then nth j l d else nth (S j) l d.
Proof.
  induction l as [|h t IH]; intros [|i] [|j]; simpl; try reflexivity.
  all: try (destruct (j <? i); destruct j; reflexivity).
  all: try (rewrite IH; reflexivity).
  all: try (destruct (S j <? S i); reflexivity).
Qed.

Lemma nth_error_snoc {A} (l : list A) x j :
  nth_error (l ++ [x]) j = if j <? length l then nth_error l j else if j =? length l then Some x else None.
Proof.
  destruct (j <? length l) eqn:E.
  - apply Nat.ltb_lt in E. now rewrite nth_error_app1.
  - apply Nat.ltb_ge in E. rewrite nth_error_app2 by lia.
    destruct (j =? length l) eqn:E2.
    + apply Nat.eqb_eq in E2. subst. now rewrite Nat.sub_diag.
    + apply Nat.eqb_neq in E2. destruct (j - length l) as [|n] eqn:E3; [lia|]. simpl. now destruct n.
Qed.

Lemma nth_snoc {A} (l : list A) x d k :
  nth k (l ++ [x]) d = if k <? length l then nth k l d else if k =? length l then x else d.
Proof.
  destruct (k <? length l) eqn:E.
  - apply Nat.ltb_lt in E. now rewrite app_nth1.
  - apply Nat.ltb_ge in E. rewrite app_nth2 by lia. destruct (k =? length l) eqn:E2.
    + apply Nat.eqb_eq in E2. subst. now rewrite Nat.sub_diag.
    + apply Nat.eqb_neq in E2. destruct (k - length l) as [|m] eqn:E3; [lia|]. simpl. now destruct m.
Qed.

Lemma nth_app_snoc_nil {A} (l : list (list A)) k : nth k (l ++ [[]]) [] = nth k l [].
Proof.
  rewrite nth_snoc. destruct (Nat.ltb_spec k (length l)); [reflexivity|].
  rewrite nth_overflow by lia. now destruct (k =? length l).
Qed.

Lemma nth_error_In' {A} (l : list A) x : In x l <-> exists i, nth_error l i = Some x.
Proof. split; [apply In_nth_error | intros [i H]; eapply nth_error_In; eauto]. Qed.

Lemma NoDup_nth_error_inj {A} (l : list A) i j x :
  NoDup l -> nth_error l i = Some x -> nth_error l j = Some x -> i = j.
Proof.
  intros Hnd Hi Hj. rewrite NoDup_nth_error in Hnd. apply Hnd.
  - apply nth_error_Some. congruence.
  - congruence.
Qed.

Lemma NoDup_same_length {A} (l1 l2 : list A) : NoDup l1 -> NoDup l2 -> (forall x, In x l1 <-> In x l2) -> length l1 = length l2.
Proof.
  intros N1 N2 H. apply Nat.le_antisymm; apply NoDup_incl_length; auto; intros x Hx; now apply H.
Qed.

Lemma skipn_remove_nth {A} (l : list A) : forall i, skipn i (remove_nth i l) = skipn (S i) l.
Proof.
  induction l as [|h t IH]; intros [|i]; try reflexivity.
  change (skipn i (remove_nth i t) = skipn (S i) t). apply IH.
Qed.

Lemma nth_error_skipn {A} (l : list A) : forall i m, nth_error (skipn i l) m = nth_error l (i + m).
Proof. induction l as [|h t IH]; intros [|i] m; simpl; auto. now destruct m. Qed.

Lemma NoDup_skipn {A} (l : list A) i : NoDup l -> NoDup (skipn i l).
Proof.
  revert i; induction l as [|h t IH]; intros [|i] H; simpl; auto. inversion H; subst. auto.
Qed.

Lemma nth_combine_seq {A} (l : list A) (d : A) : forall s k, k < length l ->
  nth k (combine (seq s (length l)) l) (0, d) = (s + k, nth k l d).
Proof.
  induction l as [|h t IH]; intros s [|k] Hk; simpl in *; try lia.
  - now rewrite Nat.add_0_r.
  - rewrite IH by lia. f_equal. lia.
Qed.

Lemma find_ext' {A} (f g : A -> bool) l : (forall x, f x = g x) -> find f l = find g l.
Proof. intros H. induction l as [|a l IH]; simpl; [reflexivity|]. rewrite H, IH. reflexivity. Qed.

Lemma length_concat {A} (l : list (list A)) : length (concat l) = fold_right Nat.add 0 (map (@length A) l).
Proof. induction l as [|h t IH]; simpl; auto. rewrite app_length, IH. reflexivity. Qed.

Lemma concat_all_nil {A} (l : list (list A)) : (forall x, In x l -> x = []) -> concat l = [].
Proof. induction l as [|h t IH]; intros H; simpl; auto. rewrite (H h) by (now left). apply IH. intros; apply H; now right. Qed.

Lemma concat_nth_seq {A} (l : list (list A)) : concat l = concat (map (fun k => nth k l []) (seq 0 (length l))).
Proof. induction l as [|h t IH]; simpl; auto. f_equal. rewrite <- seq_shift, map_map. exact IH. Qed.

Lemma NoDup_concat {A} (ll : list (list A)) :
  (forall k, NoDup (nth k ll [])) ->
  (forall k k' x, k <> k' -> In x (nth k ll []) -> In x (nth k' ll []) -> False) ->
  NoDup (concat ll).
Proof.
  induction ll as [|l t IH]; intros H1 H2; simpl; [constructor|].
  apply NoDup_app'.
  - exact (H1 0).
  - apply IH; [intros k; exact (H1 (S k)) | intros k k' x Hne; apply (H2 (S k) (S k') x); lia].
  - intros x Hx Hc. apply in_concat in Hc. destruct Hc as [l' [Hl' Hx']].
    apply In_nth with (d := []) in Hl'. destruct Hl' as [k [Hk <-]].
    apply (H2 0 (S k) x); auto.
Qed.

Lemma fold_left_keeps {A S} (f : S -> A -> S) (Q : S -> Prop) (l : list A) :
  (forall s a, In a l -> Q s -> Q (f s a)) -> forall s, Q s -> Q (fold_left f l s).
Proof.
  induction l as [|a l IH]; intros Hf s Hs; simpl; [exact Hs|].
  apply IH; [intros s' a' Ha'; apply Hf; now right | apply Hf; [now left | exact Hs]].
Qed.

Lemma prefix_ind {A} (Q : list A -> Prop) (L : list A) :
  Q [] -> (forall dn x rest, L = dn ++ x :: rest -> Q dn -> Q (dn ++ [x])) -> Q L.
Proof.
  intros H0 Hstep. assert (G : forall rest dn, L = dn ++ rest -> Q dn -> Q (dn ++ rest)); [|exact (G L [] eq_refl H0)].
  induction rest as [|x rest IH]; intros dn Hl H; [now rewrite app_nil_r|].
  replace (dn ++ x :: rest) with ((dn ++ [x]) ++ rest) in * by (now rewrite <- app_assoc).
  apply IH; [exact Hl|]. apply (Hstep dn x rest); [now rewrite <- app_assoc in Hl | exact H].
Qed.

Lemma filter_all {A} (f : A -> bool) l : (forall x, In x l -> f x = true) -> filter f l = l.
Proof. induction l as [|a l IH]; intros H; simpl; [reflexivity|]. rewrite (H a (or_introl eq_refl)), IH; auto. intros x Hx. apply H. now right. Qed.

Lemma filter_none {A} (f : A -> bool) l : (forall x, In x l -> f x = false) -> filter f l = [].
Proof. induction l as [|a l IH]; intros H; simpl; [reflexivity|]. rewrite (H a (or_introl eq_refl)), IH; auto. intros x Hx. apply H. now right. Qed.

Lemma nodup1 (p : name) : NoDup [p].
Proof. constructor; [intros [] | constructor]. Qed.

Lemma nodup2 (p q : name) : p <> q -> NoDup [p; q].
Proof. intros Ne. constructor; [intros [E|[]]; congruence | constructor; [intros []|constructor]]. Qed.

Lemma Forall2_len {A B} (P : A -> B -> Prop) l1 l2 : Forall2 P l1 l2 -> length l1 = length l2.
Proof. induction 1; simpl; auto. Qed.

Lemma Forall2_in_l {A B} (R : A -> B -> Prop) l m a : Forall2 R l m -> In a l -> exists b, In b m /\ R a b.
Proof.
  induction 1 as [|a0 b0 l m Hab _ IH]; intros Hin; [destruct Hin|]. destruct Hin as [<-|Hin]; [exists b0; split; [now left | exact Hab]|].
  destruct (IH Hin) as (b & Hb & Hr). exists b. split; [now right | exact Hr].
Qed.

Lemma Forall2_in_r {A B} (R : A -> B -> Prop) l m b : Forall2 R l m -> In b m -> exists a, In a l /\ R a b.
Proof.
  induction 1 as [|a0 b0 l m Hab _ IH]; intros Hin; [destruct Hin|]. destruct Hin as [<-|Hin]; [exists a0; split; [now left | exact Hab]|].
  destruct (IH Hin) as (a & Ha & Hr). exists a. split; [now right | exact Hr].
Qed.

Lemma Forall2_impl {A B} (R R' : A -> B -> Prop) : (forall a b, R a b -> R' a b) -> forall l m, Forall2 R l m -> Forall2 R' l m.
Proof. intros H l m. induction 1; constructor; auto. Qed.

Lemma NoDup_map_inj_in {A B} (g : A -> B) (l : list A) : NoDup l ->
  (forall a b, In a l -> In b l -> g a = g b -> a = b) -> NoDup (map g l).
Proof.
  induction l as [|x l IH]; simpl; intros Nd Hinj; constructor; inversion Nd as [|? ? Hx Hl]; subst.
  - intros H. apply in_map_iff in H. destruct H as (y & E & Hy). apply Hx.
    rewrite (Hinj x y); auto.
  - apply IH; auto.
Qed.

Lemma In_remove_nth {A} (x : A) : forall l i, In x (remove_nth i l) -> In x l.
Proof. induction l as [|h t IH]; intros [|i]; simpl; auto. intros [E|H]; [now left|right; eapply IH; eauto]. Qed.

Lemma NoDup_remove_nth {A} : forall (l : list A) i, NoDup l -> NoDup (remove_nth i l).
Proof.
  induction l as [|h t IH]; intros [|i] H; simpl; auto; inversion H as [|a b Hn Hd]; subst; auto.
  constructor; [|now apply IH]. intros Hin. apply Hn. eapply In_remove_nth; eauto.
Qed.

Lemma map_seq_pad {A} (g : nat -> A) z n m : (forall j, n <= j -> g j = z) ->
  map g (seq 0 (n + m)) = map g (seq 0 n) ++ repeat z m.
Proof.
  intros H. rewrite seq_app, map_app. f_equal. cbn [plus].
  assert (G : forall k a, n <= a -> map g (seq a k) = repeat z k).
  { induction k as [|k IH]; intros a Ha; simpl; [reflexivity|]. now rewrite H, IH by lia. }
  now apply G.
Qed.

Lemma concat_pad {A} (g : nat -> list A) n m : (forall j, n <= j -> g j = []) ->
  concat (map g (seq 0 (n + m))) = concat (map g (seq 0 n)).
Proof.
  intros H. rewrite (map_seq_pad g [] n m H), concat_app.
  replace (concat (repeat [] m)) with (@nil A) by (induction m; auto). apply app_nil_r.
Qed.

Lemma nth_map_in {A B} (g : A -> B) (d : A) (d' : B) l i : i < length l -> nth i (map g l) d' = g (nth i l d).
Proof. intros H. rewrite (nth_indep _ d' (g d)) by (now rewrite map_length). apply map_nth. Qed.

Lemma nth_skipn {A} (d : A) n : forall l j, nth j (skipn n l) d = nth (n + j) l d.
Proof. induction n as [|n IH]; intros [|a l] j; simpl; auto. now destruct j. Qed.

(* in a concatenation of g 0, g 1, ... whatever stands in an earlier part comes before whatever stands in a later one *)
Lemma concat_seq_before {A} (g : nat -> list A) n done s rest f kf ks :
  (forall k k' x, In x (g k) -> In x (g k') -> k = k') ->
  concat (map g (seq 0 n)) = done ++ s :: rest -> In s (g ks) -> In f (g kf) -> kf < ks -> In f done.
Proof.
  intros Hdis Hl Hs Hf Hlt.
  assert (Hpart : forall m x, In x (concat (map g (seq 0 m))) -> exists k, k < m /\ In x (g k)).
  { intros m x Hx. apply in_concat in Hx. destruct Hx as (l & Hl' & Hx). apply in_map_iff in Hl'.
    destruct Hl' as (k & <- & Hk). apply in_seq in Hk. exists k. split; [lia | exact Hx]. }
  destruct (Hpart n s) as (k & Hk & Hsk); [rewrite Hl; apply in_elt|]. rewrite (Hdis k ks s Hsk Hs) in Hk.
  replace n with (ks + (n - ks)) in Hl by lia. rewrite seq_app, map_app, concat_app in Hl.
  assert (Hfe : In f (concat (map g (seq 0 ks)))).
  { apply in_concat. exists (g kf). split; [apply in_map, in_seq; lia | exact Hf]. }
  (* s does not stand in the parts before g ks, so these parts lie within `done` *)
  apply app_eq_app in Hl. destruct Hl as (l & [[E1 E2]|[E1 _]]).
  - destruct l as [|x l]; [now rewrite app_nil_r in E1; rewrite <- E1|]. injection E2 as <- _.
    destruct (Hpart ks s) as (k' & Hk' & Hsk'); [rewrite E1; apply in_elt|]. rewrite (Hdis k' ks s Hsk' Hs) in Hk'. lia.
  - rewrite E1. apply in_or_app. now left.
Qed.
