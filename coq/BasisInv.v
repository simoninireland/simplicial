(* BasisInv.v -- "the basis of a simplex is the set of points in its closure" (C03) for every
   history of public operations: a point is its own basis, and the basis of a higher simplex is
   the union of the bases of its faces.  Plain Coq. *)
From Coq Require Import String ZArith Bool Arith List Lia.
From SV Require Import Names NamesFacts ListFacts Rep Fresh Complex Atomic RepInv Shapes Incidence AddEffect
                       DelEffect StarOrder Closed ReachGen ClosedReach RelabelProofs RelabelAll Duality.
From SV Require Import DeleteEffect AddBasis DelBasis.
Import ListNotations.
Open Scope nat_scope.

Definition binv (r : rep) : Prop :=
  forall t k j, assoc t (r_simp r) = Some (k, j) ->
  (k = 0 -> basisOf r t = [t]) /\
  (1 <= k -> forall p, In p (basisOf r t) <-> exists u, In u (faces r t) /\ In p (basisOf r u)).

Record bcinv (r : rep) : Prop := { b_c : cinv r; b_b : binv r }.

Lemma bcinv_cinv r : bcinv r -> cinv r.
Proof. apply b_c. Qed.
Lemma bcinv_sinv r : bcinv r -> sinv r.
Proof. intros H. apply c_s, b_c, H. Qed.
Lemma bcinv_pinv r : bcinv r -> pinv r.
Proof. intros H. apply s_p, bcinv_sinv, H. Qed.

Lemma ex_in_iff {A} (l l' : list A) (P Q : A -> Prop) :
  (forall u, In u l <-> In u l') -> (forall u, In u l -> (P u <-> Q u)) ->
  ((exists u, In u l /\ P u) <-> exists u, In u l' /\ Q u).
Proof.
  intros Hl HP. split; intros (u & Hu & H); exists u.
  - split; [apply Hl, Hu | apply HP; assumption].
  - apply Hl in Hu. split; [exact Hu | apply HP; assumption].
Qed.

Lemma bcinv_empty uid : bcinv (empty_rep uid).
Proof. split; [apply cinv_empty|]. intros t k j H. discriminate. Qed.

Lemma bcinv_same_obs r r' : same_obs r r' -> bcinv r -> bcinv r'.
Proof.
  intros Hs [C B]. split; [eapply cinv_same_obs; eauto|].
  destruct (same_obs_queries r r' Hs) as (_ & _ & Qf & _ & Qb & _). pose proof Hs as (_ & _ & Hsimp & _).
  intros t k j H. rewrite Hsimp in H. destruct (B t k j H) as [B0 B1]. split.
  - intros Hk. rewrite Qb. auto.
  - intros Hk p. rewrite Qb, Qf, (B1 Hk p). apply ex_in_iff; [reflexivity|]. intros u _. now rewrite Qb.
Qed.

Lemma basis_nodup r t : pinv r -> NoDup (basisOf r t).
Proof.
  intros P. unfold basisOf. destruct (assoc t (r_simp r)) as [[k j]|] eqn:At; [|constructor].
  apply NoDup_names_of_col, pinv_nodup_order, P.
Qed.

Lemma basis_in_points r t p : pinv r -> In p (basisOf r t) -> exists i, assoc p (r_simp r) = Some (0, i).
Proof.
  intros P Hp. unfold basisOf in Hp. destruct (assoc t (r_simp r)) as [[k j]|]; [|destruct Hp].
  apply In_names_of_col_sub in Hp. fold (idxk r 0) in Hp. rewrite <- (simplicesOfOrder_idxk r 0 P) in Hp. now apply listed_assoc in Hp.
Qed.

Lemma point_basis r p i : bcinv r -> assoc p (r_simp r) = Some (0, i) -> basisOf r p = [p].
Proof. intros Hb Ap. now apply (b_b r Hb p 0 i Ap). Qed.

Lemma singleton_list (l : list name) x : NoDup l -> (forall p, In p l <-> p = x) -> l = [x].
Proof.
  intros Hnd H. destruct l as [|a l]; [exfalso; apply (proj2 (H x) eq_refl)|].
  assert (a = x) by (apply H; now left). subst a. destruct l as [|b l]; [reflexivity|].
  assert (b = x) by (apply H; right; now left). subst b. inversion Hnd as [|y ys Hy _]; subst. exfalso. apply Hy. now left.
Qed.

Theorem addSimplex_bcinv r fs id attr r' x : bcinv r -> addSimplex r fs id attr = (r', x) -> bcinv r'.
Proof.
  intros [C B] H. destruct x as [n|e].
  2: { apply addSimplex_atomic in H. destruct H as [Hs _]. eapply bcinv_same_obs; eauto. split; auto. }
  pose proof (c_s r C) as HS.
  split; [eapply addSimplex_cinv; eauto|].
  destruct (addSimplex_effect r fs id attr r' n HS H) as (_ & _ & Ho & Hf & Hold & Hall).
  destruct (addSimplex_new_basis r fs id attr r' n HS H) as [Hfs Hnb].
  assert (Hbn : forall u, containsSimplex r u = true -> basisOf r' u = basisOf r u) by (intros u Hu; apply Hold, Hu).
  intros t k j At. pose proof (assoc_contains r' t _ _ At) as Hc'.
  rewrite Hall in Hc'. destruct (name_eqb_spec t n) as [->|Hne].
  - 
    unfold orderOf in Ho. rewrite At in Ho. injection Ho as ->.
    destruct Hnb as [[-> Hb]|[Hl Hb]].
    + split; [intros _; exact Hb | simpl; lia].
    + split; [lia|]. intros _ p. rewrite (Hb p). symmetry. apply ex_in_iff; [exact Hf|].
      intros f Hfin. apply Hf in Hfin. now rewrite (Hbn f (Hfs f Hfin)).
  - (* an older simplex: nothing it refers to has changed *)
    rewrite orb_false_r in Hc'. destruct (Hold t Hc') as (O & I & Fa & Ba).
    unfold orderOf, indexOf in O, I. rewrite At in O, I.
    destruct (assoc t (r_simp r)) as [[k2 i2]|] eqn:A2; [|discriminate]. injection O as <-. injection I as <-.
    destruct (B t k j A2) as [B0 B1]. rewrite Ba, Fa. split; [exact B0|].
    intros H1 p. rewrite (B1 H1 p). apply ex_in_iff; [reflexivity|]. intros u Hu.
    destruct k as [|k']; [lia|]. destruct (face_is_simplex r HS t u k' j A2 Hu) as (iu & Au).
    now rewrite (Hbn u (assoc_contains r u _ _ Au)).
Qed.

Lemma renamed_preimage phi r r' : pinv r -> pinv r' -> renamed_by phi r r' ->
  forall t k j, assoc t (r_simp r') = Some (k, j) -> exists t0, t = phi t0 /\ assoc t0 (r_simp r) = Some (k, j).
Proof.
  intros [K Pm St L] [K' Pm' St' L'] (_ & _ & En & Ei) t k j At. destruct (proj1 (Pm' t k j) At) as [Hk Hj].
  rewrite Ei, nth_error_map in Hj. destruct (nth_error (idxk r k) j) as [t0|] eqn:E0; [|discriminate].
  injection Hj as <-. exists t0. split; [reflexivity|]. apply Pm. split; [lia | exact E0].
Qed.

Lemma renamed_bcinv phi r r' : renamed_by phi r r' -> cinv r' -> bcinv r -> bcinv r'.
Proof.
  intros Hren C' [C B]. split; [exact C'|].
  pose proof (c_s r C) as HS. pose proof (s_p r HS) as P. pose proof (s_p r' (c_s r' C')) as P'.
  intros t k j At. destruct (renamed_preimage phi r r' P P' Hren t k j At) as (t0 & -> & A0).
  destruct (renamed_structure phi r r' P P' Hren t0 k j A0) as (_ & Fa & _ & Ba).
  destruct (B t0 k j A0) as [B0 B1]. rewrite Ba, Fa. split.
  - intros Hk0. now rewrite (B0 Hk0).
  - intros H1 p.
    assert (HBu : forall u, In u (faces r t0) -> basisOf r' (phi u) = map phi (basisOf r u)).
    { intros u Hu. destruct k as [|k']; [lia|]. destruct (face_is_simplex r HS t0 u k' j A0 Hu) as (iu & Au).
      now destruct (renamed_structure phi r r' P P' Hren u k' iu Au) as (_ & _ & _ & Bu). }
    rewrite in_map_iff. split.
    + intros (p0 & <- & Hp0). apply (B1 H1) in Hp0. destruct Hp0 as (u & Hu & Hp0).
      exists (phi u). split; [now apply in_map|]. rewrite (HBu u Hu). now apply in_map.
    + intros (u' & Hu' & Hp). apply in_map_iff in Hu'. destruct Hu' as (u & <- & Hu).
      rewrite (HBu u Hu), in_map_iff in Hp. destruct Hp as (p0 & <- & Hp0). exists p0. split; [reflexivity|].
      apply (B1 H1). eauto.
Qed.

Theorem relabelSimplex_bcinv r s q r' x : bcinv r -> relabelSimplex r s q = (r', x) -> bcinv r'.
Proof.
  intros Hb H. destruct x as [[]|e].
  2: { apply relabelSimplex_atomic in H. now destruct H as [-> _]. }
  apply (renamed_bcinv (ren1 s q) r r'); [|eapply relabelSimplex_cinv; eauto using bcinv_cinv | exact Hb].
  exact (relabelSimplex_renames r s q r' (bcinv_pinv r Hb) H).
Qed.

Theorem forceDelete_bcinv r s r' x : bcinv r -> cofaces r s = [] -> forceDeleteSimplex r s = (r', x) -> bcinv r'.
Proof.
  intros [C B] Hco H. destruct x as [[]|e].
  2: { apply forceDeleteSimplex_atomic in H. destruct H as [-> _]. split; auto. }
  pose proof (c_s r C) as HS.
  split; [eapply forceDelete_cinv; eauto|].
  destruct (assoc s (r_simp r)) as [[k i]|] eqn:As; [|unfold forceDeleteSimplex in H; rewrite As in H; discriminate].
  assert (Er : r' = fst (forceDeleteSimplex r s)) by (now rewrite H). subst r'.
  intros t kt' j At.
  destruct (d_sub r s k i HS As t (assoc_contains _ t _ _ At)) as [Hc Hne].
  apply containsSimplex_assoc in Hc. destruct Hc as (kt & it & A0).
  destruct (d_pos r s k i HS As t kt it Hne A0) as (_ & At' & _). rewrite At in At'. injection At' as <- _.
  pose proof (d_basis r s k i HS As t kt' it Hne A0) as Hbt.
  destruct (d_faces r s k i HS As t kt' it Hne A0) as [_ Hsame].
  assert (Hns : ~ In s (faces r t)).
  { intros Hin. apply (cofaces_inverse_of_faces r HS t s) in Hin. rewrite Hco in Hin. destruct Hin. }
  destruct (B t kt' it A0) as [B0 B1]. split.
  - intros Hk0. apply singleton_list; [apply basis_nodup, s_p, (d_sinv r s k i HS As)|].
    intros p. rewrite Hbt, (B0 Hk0). simpl. split; [intros [[<-|[]] _]; reflexivity | intros ->; split; [now left | exact Hne]].
  - intros H1 p. rewrite Hbt, (Hsame Hns), (B1 H1 p).
    (* the faces of t survive, and lose the same point as t *)
    assert (Hbu : forall u, In u (faces r t) -> (In p (basisOf (fst (forceDeleteSimplex r s)) u) <-> In p (basisOf r u) /\ p <> s)).
    { intros u Hu. destruct kt' as [|k']; [lia|]. destruct (face_is_simplex r HS t u k' it A0 Hu) as (iu & Au).
      apply (d_basis r s k i HS As u k' iu); [intros ->; contradiction | exact Au]. }
    split.
    + intros ((u & Hu & Hp) & Hps). exists u. split; [exact Hu|]. apply (Hbu u Hu). now split.
    + intros (u & Hu & Hp). apply (Hbu u Hu) in Hp. destruct Hp as [Hp Hps]. eauto.
Qed.

Theorem deleteSimplex_bcinv r s r' x : bcinv r -> deleteSimplex r s = (r', x) -> bcinv r'.
Proof. exact (deleteSimplex_inv bcinv bcinv_sinv forceDelete_bcinv r s r' x). Qed.

Local Hint Resolve bcinv_same_obs bcinv_empty addSimplex_bcinv relabelSimplex_bcinv deleteSimplex_bcinv : bcinv.

Theorem public_history_bcinv uid ops : bcinv (fold_left pstep ops (empty_rep uid)).
Proof. inst public_history_I at bcinv with bcinv. Qed.

(* the basis of a simplex is the set of points in its closure: exactly what is reached from it by
   as many face steps as its order *)
Theorem basis_is_closure_points r : bcinv r ->
  forall k t j, assoc t (r_simp r) = Some (k, j) -> forall p, In p (basisOf r t) <-> fchain r k t p.
Proof.
  intros [C B]. pose proof (c_s r C) as HS.
  induction k as [|k IH]; intros t j At p.
  - destruct (B t 0 j At) as [B0 _]. rewrite (B0 eq_refl). simpl. split; [intros [<-|[]]; reflexivity | intros <-; now left].
  - destruct (B t (S k) j At) as [_ B1]. rewrite (B1 ltac:(lia) p). simpl. split; intros (u & Hu & Hp); exists u; split; auto.
    + destruct (face_is_simplex r HS t u k j At Hu) as (iu & Au). now apply (IH u iu Au).
    + destruct (face_is_simplex r HS t u k j At Hu) as (iu & Au). now apply (IH u iu Au) in Hp.
Qed.
