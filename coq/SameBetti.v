(* SameBetti.v -- C06: the Betti numbers depend only on the family of vertex sets.  Two complexes that meet the
   vertex-set reading and carry simplices on the same sets of points -- whatever the names, the order of
   insertion, the deletions, copies, renamings or decodings that led to them -- have the same mod-2 Betti
   numbers: their boundary operators differ by a re-indexing of rows and columns (SameFamily.v), which does not
   change the GF(2) rank (RankPerm.v). *)
From Coq Require Import ZArith Lia.
From mathcomp Require Import ssreflect ssrfun ssrbool eqtype ssrnat seq choice fintype finfun bigop finset fingroup perm ssralg zmodp matrix mxalgebra.
From SV Require Import NamesFacts Rep Complex Homology SnfCount Betti RepInv Shapes VInv.
From SV Require Import TwoOnes RankPerm FlagComplete SameFamily CopyFaithful VIso.
Set Implicit Arguments.
Unset Strict Implicit.
Unset Printing Implicit Defensive.
Import GRing.Theory.
Local Open Scope ring_scope.

Lemma rk_higher r1 r2 k : vinv r1 -> vinv r2 -> same_family r1 r2 ->
  rk (boundaryOperator r1 (S k)) = rk (boundaryOperator r2 (S k)).
Proof.
move=> V1 V2 Hf.
have S1 := VInv.vinv_sinv r1 V1. have S2 := VInv.vinv_sinv r2 V2.
have Hn := @same_counts r1 r2 (S k) V1 V2 Hf.
have Hm := @same_counts r1 r2 k V1 V2 Hf.
have C1 := @boundary_ncols r1 (S k) S1. have C2 := @boundary_ncols r2 (S k) S2.
case En : (length (simplicesOfOrder r1 (S k))) => [|n'].
  by rewrite !rk_nocols // ?C1 ?C2 -?Hn.
have Hlt1 : (S k < r_nord r1)%coq_nat.
  by apply: (@sOO_nonempty_lt r1 (S k) 0); rewrite En; lia.
have Hlt2 : (S k < r_nord r2)%coq_nat.
  by apply: (@sOO_nonempty_lt r2 (S k) 0); rewrite -Hn En; lia.
have R1 := @boundary_nrows r1 k S1 Hlt1. have R2 := @boundary_nrows r2 k S2 Hlt2.
rewrite /rk R1 R2 C1 C2 -Hn -Hm.
have Hb k' i : (i < length (simplicesOfOrder r1 k'))%N -> (sig r1 r2 k' i < length (simplicesOfOrder r1 k'))%N.
  move=> /ltP Hi; apply/ltP; rewrite (@same_counts r1 r2 k' V1 V2 Hf).
  exact: (proj1 (sig_spec r1 r2 V1 V2 Hf k' i Hi)).
have Hinj k' i i' : (i < length (simplicesOfOrder r1 k'))%N -> (i' < length (simplicesOfOrder r1 k'))%N ->
    sig r1 r2 k' i = sig r1 r2 k' i' -> i = i'.
  by move=> /ltP Hi /ltP Hi'; exact: sig_inj.
apply: (rank_reindex (Hb k) (Hinj k) (Hb (S k)) (Hinj (S k))).
move=> i j Hi Hj.
rewrite !entry_rows_of ?R1 ?R2 -?Hm; [|apply/ltP; exact: Hb|exact/ltP].
by apply: same_entries => //; exact/ltP.
Qed.

Theorem same_betti r1 r2 k : vinv r1 -> vinv r2 -> same_family r1 r2 -> betti1 r1 k = betti1 r2 k.
Proof.
move=> V1 V2 Hf.
have S1 := VInv.vinv_sinv r1 V1. have S2 := VInv.vinv_sinv r2 V2.
rewrite !betti_formula (@boundary_ncols r1 k S1) (@boundary_ncols r2 k S2) (@same_counts r1 r2 k V1 V2 Hf).
rewrite (@rk_higher r1 r2 k V1 V2 Hf).
by case: k => [|k]; [rewrite !rk_bop0 | rewrite (@rk_higher r1 r2 k V1 V2 Hf)].
Qed.

Theorem copy_same_betti hp src uid hp' c k : vinv src -> copy_new hp (view_of src) uid = (hp', c, Ok tt) ->
  betti1 c k = betti1 src k.
Proof.
move=> Hv E.
have [Vc Bc] := @copy_vinv hp src uid hp' c Hv E.
have [_ [Hm _]] := @copy_faithful hp src uid hp' c E.
have P := VInv.vinv_pinv src Hv.
apply: same_betti => // B HB Hne; split => -[t [Ct St]].
- exists t; split; last by move=> x; rewrite -(St x); split => H; apply/(Bc t Ct).
  by move: Ct; rewrite Hm => /memn_In /(In_simplices_iff src t P).
- have Ct' : containsSimplex c t = true by rewrite Hm; apply/memn_In/(In_simplices_iff src t P).
  exists t; split => // x; rewrite -(St x); exact: (Bc t Ct' x).
Qed.
