(* StarOrder.v -- the list deleteSimplex walks (partOf(s, reverse=True)) lists the star of s
   without repeats, cofaces before faces, s last: when a simplex's turn comes, all its cofaces
   have been listed before it.  Plain Coq. *)
From Coq Require Import String ZArith Bool Arith List Lia Permutation.
From SV Require Import Names NamesFacts ListFacts Rep Fresh Complex Atomic RepInv Shapes Incidence.
Import ListNotations.
Open Scope nat_scope.

Definition ge_b (a b : nat) : bool := b <=? a.

Lemma insert_by_perm le p l : Permutation (insert_by le p l) (p :: l).
Proof.
  induction l as [|a l IH]; simpl; [reflexivity|]. destruct (le (fst p) (fst a)); [reflexivity|].
  rewrite IH. apply perm_swap.
Qed.

Lemma sort_desc_perm l : Permutation (sort_desc l) l.
Proof. unfold sort_desc. induction l as [|a l IH]; simpl; [reflexivity|]. now rewrite insert_by_perm, IH. Qed.

Lemma In_insert_by le p l q : In q (insert_by le p l) <-> q = p \/ In q l.
Proof. rewrite (Permutation_in' eq_refl (insert_by_perm le p l)). simpl. intuition. Qed.

Lemma In_sort_desc l q : In q (sort_desc l) <-> In q l.
Proof. apply Permutation_in', sort_desc_perm. reflexivity. Qed.

Fixpoint desc (l : list (nat * name)) : Prop :=
  match l with [] => True | p :: t => (forall q, In q t -> fst q <= fst p) /\ desc t end.

Lemma desc_insert p l : desc l -> desc (insert_by ge_b p l).
Proof.
  induction l as [|a l IH]; intros H; simpl; [split; [intros q []|exact I]|].
  destruct H as [Ha Hl]. unfold ge_b at 1. destruct (fst a <=? fst p) eqn:E.
  - apply Nat.leb_le in E. simpl. split; [|split; assumption].
    intros q [<-|Hq]; [exact E|]. specialize (Ha q Hq). lia.
  - apply Nat.leb_gt in E. simpl. split; [|now apply IH].
    intros q Hq. apply In_insert_by in Hq. destruct Hq as [->|Hq]; [lia | now apply Ha].
Qed.

Lemma desc_sort l : desc (sort_desc l).
Proof. unfold sort_desc. induction l as [|a l IH]; simpl; [exact I|]. now apply desc_insert. Qed.

Lemma desc_split l1 p l2 : desc (l1 ++ p :: l2) -> forall q, In q l2 -> fst q <= fst p.
Proof. induction l1 as [|a l1 IH]; simpl; intros [H1 H2]; [exact H1 | now apply IH]. Qed.

Lemma NoDup_snd_insert le p l : NoDup (map snd (insert_by le p l)) <-> NoDup (map snd (p :: l)).
Proof.
  pose proof (Permutation_map snd (insert_by_perm le p l)) as H.
  split; apply Permutation_NoDup; [exact H | now symmetry].
Qed.

Lemma NoDup_snd_sort l : NoDup (map snd l) -> NoDup (map snd (sort_desc l)).
Proof. apply Permutation_NoDup, Permutation_map. symmetry. apply sort_desc_perm. Qed.

Lemma In_dedup_sub l p : In p (dedup_on l) -> In p l.
Proof.
  induction l as [|[k n] l IH]; simpl; [tauto|]. intros [<-|H]; [now left|].
  apply filter_In in H. right. apply IH. tauto.
Qed.

Lemma In_dedup_name l o c : In (o, c) l -> exists o', In (o', c) (dedup_on l).
Proof.
  induction l as [|[k n] l IH]; simpl; [tauto|]. intros [E|H].
  - injection E as -> ->. eauto.
  - destruct (IH H) as (o' & Ho'). destruct (name_eqb_spec n c) as [->|Hne]; [eauto|].
    exists o'. right. apply filter_In. split; [exact Ho'|]. simpl. now rewrite (name_eqb_neq n c).
Qed.

Lemma NoDup_dedup l : NoDup (map snd (dedup_on l)).
Proof.
  induction l as [|[k n] l IH]; simpl; [constructor|]. constructor.
  - intros Hin. apply in_map_iff in Hin. destruct Hin as ([o c] & Ec & Hq). simpl in Ec. subst c.
    apply filter_In in Hq. destruct Hq as [_ Hq]. simpl in Hq. now rewrite name_eqb_refl in Hq.
  - clear -IH. induction (dedup_on l) as [|[o c] d IHd]; simpl; [constructor|].
    inversion IH as [|x xs Hx Hxs]; subst. destruct (negb (name_eqb n c)); simpl; [|now apply IHd].
    constructor; [|now apply IHd]. intros Hin. apply Hx. apply in_map_iff in Hin. destruct Hin as (q & Eq & Hq).
    apply filter_In in Hq. apply in_map_iff. exists q. tauto.
Qed.

Lemma desc_nth l : desc l -> forall i j p q, nth_error l i = Some p -> nth_error l j = Some q -> i < j -> fst q <= fst p.
Proof.
  induction l as [|a l IH]; intros H i j p q Hi Hj Hij; [destruct i; discriminate|].
  destruct H as [Ha Hl]. destruct i as [|i]; destruct j as [|j]; try lia; simpl in *.
  - injection Hi as <-. apply Ha. eapply nth_error_In; eauto.
  - eapply IH; eauto. lia.
Qed.

Section Star.
  Variable r : rep.
  Hypothesis Hinv : sinv r.

  Lemma aux_orders f : forall s k is o c, assoc s (r_simp r) = Some (k, is) ->
    In (o, c) (partOf_aux f r s k) -> (exists jc, assoc c (r_simp r) = Some (o, jc)) /\ k < o.
  Proof.
    induction f as [|f IH]; intros s k is o c As H; [destruct H|].
    simpl in H. apply in_flat_map in H. destruct H as (c0 & Hc0 & H).
    destruct (coface_is_simplex r Hinv c0 s k is As Hc0) as (j0 & A0).
    destruct H as [E|H].
    - injection E as <- <-. split; [eauto | lia].
    - destruct (IH c0 (S k) j0 o c A0 H) as [H1 H2]. split; [exact H1 | lia].
  Qed.

  Lemma aux_closed f : forall s k is o c u, assoc s (r_simp r) = Some (k, is) ->
    In (o, c) (partOf_aux f r s k) -> In u (cofaces r c) -> o - k < f -> In (S o, u) (partOf_aux f r s k).
  Proof.
    induction f as [|f IH]; intros s k is o c u As H Hu Hf; [destruct H|].
    simpl in H. simpl. apply in_flat_map in H. destruct H as (c0 & Hc0 & H).
    destruct (coface_is_simplex r Hinv c0 s k is As Hc0) as (j0 & A0).
    apply in_flat_map. exists c0. split; [exact Hc0|].
    destruct H as [E|H].
    - injection E as <- <-. right. destruct f as [|f]; [lia|]. simpl. apply in_flat_map. exists u. split; [exact Hu | now left].
    - right. destruct (aux_orders f c0 (S k) j0 o c A0 H) as [_ Hlt]. apply (IH c0 (S k) j0 o c u A0 H Hu). lia.
  Qed.

  Lemma aux_first f s k u : In u (cofaces r s) -> In (S k, u) (partOf_aux (S f) r s k).
  Proof. intros H. simpl. apply in_flat_map. exists u. split; [exact H | now left]. Qed.

  Theorem star_positions s k is L : assoc s (r_simp r) = Some (k, is) -> partOf r s true false = Ok L ->
    NoDup L /\ (forall t, In t L -> containsSimplex r t = true) /\
    (forall i t u, nth_error L i = Some t -> In u (cofaces r t) -> exists j, j < i /\ nth_error L j = Some u).
  Proof.
    intros As H.
    assert (HL : L = map snd (sort_desc (dedup_on (partOf_aux (S (r_nord r)) r s k))) ++ [s]).
    { unfold partOf, orderOf in H. rewrite As in H. now injection H. }
    clear H. remember (partOf_aux (S (r_nord r)) r s k) as A eqn:EA.
    set (D := dedup_on A) in *. set (S_ := sort_desc D) in *. subst L.
    assert (HA : forall o c, In (o, c) S_ -> In (o, c) A).
    { intros o c Hc. unfold S_ in Hc. apply (proj1 (In_sort_desc _ _)) in Hc. now apply In_dedup_sub in Hc. }
    assert (Hord : forall o c, In (o, c) A -> (exists jc, assoc c (r_simp r) = Some (o, jc)) /\ k < o).
    { intros o c Hc. rewrite EA in Hc. apply (aux_orders _ s k is o c As Hc). }
    assert (HinS : forall o c, In (o, c) A -> In (o, c) S_).
    { intros o c Hc. destruct (In_dedup_name A o c Hc) as (o' & Ho'). apply (proj2 (In_sort_desc _ _)).
      destruct (Hord o c Hc) as [(j1 & A1) _]. destruct (Hord o' c (In_dedup_sub _ _ Ho')) as [(j2 & A2) _].
      rewrite A1 in A2. injection A2 as -> _. exact Ho'. }
    assert (Hnd : NoDup (map snd S_)) by (apply NoDup_snd_sort, NoDup_dedup).
    assert (Hs_out : ~ In s (map snd S_)).
    { intros Hin. apply in_map_iff in Hin. destruct Hin as ([o c] & Ec & Hc). simpl in Ec. subst c.
      destruct (Hord o s (HA o s Hc)) as [(j1 & A1) Hlt]. rewrite As in A1. injection A1 as -> _. lia. }
    split; [now apply NoDup_app_snoc|]. split.
    - intros t Ht. apply in_app_or in Ht. destruct Ht as [Ht|[<-|[]]]; [|exact (assoc_contains _ _ _ _ As)].
      apply in_map_iff in Ht. destruct Ht as ([o c] & Ec & Hc). simpl in Ec. subst c.
      destruct (Hord o t (HA o t Hc)) as [(j1 & A1) _]. exact (assoc_contains _ _ _ _ A1).
    - intros i t u Hi Hu.
      assert (Hfind : forall o, In (o, u) A -> exists j, j < length S_ /\ nth_error S_ j = Some (o, u)).
      { intros o Ho. apply HinS in Ho. apply In_nth_error in Ho. destruct Ho as (j & Hj). exists j. split; [|exact Hj].
        apply nth_error_Some. congruence. }
      destruct (Nat.lt_ge_cases i (length (map snd S_))) as [Hlt|Hge].
      + rewrite nth_error_app1 in Hi by exact Hlt. rewrite nth_error_map in Hi.
        destruct (nth_error S_ i) as [[o c]|] eqn:Ei; [|discriminate]. simpl in Hi. injection Hi as ->.
        assert (HcA : In (o, t) A) by (apply HA; eapply nth_error_In; eauto).
        destruct (Hord o t HcA) as [(jt & At) Hko].
        assert (Ho : o < r_nord r) by (apply (pinv_pos_lt r t o jt (s_p r Hinv) At)).
        assert (HuA : In (S o, u) A) by (rewrite EA in *; apply (aux_closed _ s k is o t u As HcA Hu); lia).
        destruct (Hfind (S o) HuA) as (j & Hj1 & Hj2).
        exists j. split.
        * destruct (Nat.lt_trichotomy j i) as [Hji|[->|Hij]]; [exact Hji | |].
          -- rewrite Ei in Hj2. injection Hj2 as Hj2 _. lia.
          -- pose proof (desc_nth S_ (desc_sort D) i j (o, t) (S o, u) Ei Hj2 Hij) as Hd. simpl in Hd. lia.
        * rewrite nth_error_app1 by (now rewrite map_length). rewrite nth_error_map, Hj2. reflexivity.
      + rewrite nth_error_app2 in Hi by exact Hge. destruct (i - length (map snd S_)) as [|d] eqn:Ed; [|destruct d; discriminate].
        simpl in Hi. injection Hi as <-.
        assert (HuA : In (S k, u) A) by (rewrite EA; apply aux_first; exact Hu).
        destruct (Hfind (S k) HuA) as (j & Hj1 & Hj2).
        exists j. rewrite map_length in Hge. split; [lia|].
        rewrite nth_error_app1 by (now rewrite map_length). rewrite nth_error_map, Hj2. reflexivity.
  Qed.
End Star.
