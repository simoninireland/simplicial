(* IntoFrame.v -- constructors that fill a caller-supplied target (copy(c), snap into c, compose with
   a target): the target remains the owner of all its dictionaries and no dictionary of any other
   owner -- in particular none of the source or of the operands -- is written. *)
From Coq Require Import String ZArith Bool Arith List Lia.
From SV Require Import Names NamesFacts ListFacts Rep Fresh Complex Atomic RepInv Homology Filtration Gen World WorldProofs ComposeFresh.
Import ListNotations.
Open Scope nat_scope.

Theorem copy_into_owned hp src t hp' r' x : owned t -> copy_into hp src t = (hp', r', x) ->
  owned r' /\ r_uid r' = r_uid t /\ agree_off (r_uid t) hp hp'.
Proof.
  intros Ot. unfold copy_into.
  destruct (negb (length (intern (map fst src) (simplices t false)) =? 0)); [intros [= <- <- _]; auto using agree_off_refl|].
  destruct (addSimplicesFrom hp t src RNone) as [[[hp1 r1] st] x1] eqn:E.
  intros H. injection H as <- <- _. unfold addSimplicesFrom in E.
  now apply addFrom_loop_owned in E.
Qed.

Theorem copy_into_exec_frame w v x w' o t :
  (exec w (CCopyInto v x) = (w', o) \/ exec w (CSnapInto v x) = (w', o)) ->
  vget (w_vars w) x = Some (OCx t) -> owned t ->
  forall h, fst h <> r_uid t -> heap_get (w_heap w') h = heap_get (w_heap w) h.
Proof.
  intros H Hx Ot h Hne.
  (* exec has one branch for CCopyInto and CSnapInto: the two equations are convertible *)
  assert (H' : exec w (CCopyInto v x) = (w', o)) by (destruct H as [H|H]; exact H). clear H.
  cbn [exec] in H'. rewrite Hx in H'.
  destruct (vget (w_vars w) v) as [ob|]; [|injection H' as <- _; reflexivity].
  destruct ob as [r|f|e]; try (injection H' as <- _; reflexivity);
    destruct (copy_into _ _ _) as [[hp t'] res] eqn:E; injection H' as <- _;
    destruct (copy_into_owned _ _ _ _ _ _ Ot E) as (_ & _ & F); now apply F.
Qed.

Theorem compose_into_exec_frame w a b d w' o t :
  exec w (CComposeInto a b d) = (w', o) -> vget (w_vars w) d = Some (OCx t) -> owned t ->
  forall h, fst h <> r_uid t -> heap_get (w_heap w') h = heap_get (w_heap w) h.
Proof.
  intros H Hd Ot h Hne. cbn [exec] in H. rewrite Hd in H.
  destruct (vget (w_vars w) a) as [[ra|?|?]|]; try (injection H as <- _; reflexivity).
  destruct (vget (w_vars w) b) as [[rb|?|?]|]; try (injection H as <- _; reflexivity).
  destruct (compose (w_heap w) ra rb (Some t) 0) as [[hp d'] res] eqn:E. injection H as <- _. cbn.
  destruct (compose_into_fresh _ _ _ _ _ _ _ _ Ot E) as (_ & _ & F). now apply F.
Qed.
