(* RelabelAll.v -- a whole relabel() (and relabelDisjointFrom's renaming step) changes names and
   nothing else (C15): the matrices and the number of orders are untouched, every listing is the old
   one renamed pointwise by one function; hence every boundary operator, every Smith normal form,
   the Betti numbers and the Euler characteristic are unchanged -- whether the call completes or
   stops at a rejected single rename.  Plain Coq. *)
From Coq Require Import String ZArith Bool Arith List Lia.
From SV Require Import Names Rep Complex RepInv RelabelProofs Homology.
Import ListNotations.
Open Scope nat_scope.

Definition renamed_by (phi : name -> name) (r r' : rep) : Prop :=
  r_bnd r' = r_bnd r /\ r_bas r' = r_bas r /\ r_nord r' = r_nord r /\
  forall k, idxk r' k = map phi (idxk r k).

Lemma renamed_refl r : renamed_by (fun x => x) r r.
Proof. repeat split; auto. intros k. now rewrite map_id. Qed.

Lemma renamed_trans f g a b c : renamed_by f a b -> renamed_by g b c -> renamed_by (fun x => g (f x)) a c.
Proof.
  intros (B1 & S1 & N1 & I1) (B2 & S2 & N2 & I2). repeat split; try congruence.
  intros k. rewrite I2, I1, map_map. reflexivity.
Qed.

Lemma renamed_ext f g r r' : pinv r -> (forall x, containsSimplex r x = true -> f x = g x) ->
  renamed_by f r r' -> renamed_by g r r'.
Proof.
  intros P E (B & S & N & I). repeat split; auto. intros k. rewrite I. apply map_ext_in. intros x Hx.
  apply E, (contains_iff_listed r x P). exists k. now rewrite simplicesOfOrder_idxk.
Qed.

Lemma relabelSimplex_renames r s q r' : pinv r -> relabelSimplex r s q = (r', Ok tt) -> renamed_by (ren1 s q) r r'.
Proof. intros P H. destruct (relabelSimplex_carries r s q r' P H) as (B & S & N & I & _). repeat split; auto. Qed.

Lemma relabel_do_renames rn ss r st mapping r' st' x : pinv r ->
  relabel_do r rn st ss mapping = (r', st', x) -> exists phi, renamed_by phi r r'.
Proof.
  intros P H.
  apply (relabel_do_inv (fun r1 _ => pinv r1 /\ exists phi, renamed_by phi r r1) rn) in H; [tauto|auto| |].
  - intros r1 _ s q r2 [P1 (phi & R)] E. split; [eapply relabelSimplex_pinv; eauto|].
    eexists. eapply renamed_trans; [exact R|]. eapply relabelSimplex_renames; eauto.
  - split; [exact P|]. eexists. apply renamed_refl.
Qed.

Theorem relabel_renames r rn r' st x : pinv r -> relabel r rn = (r', st, x) -> exists phi, renamed_by phi r r'.
Proof.
  intros Hinv H. unfold relabel in H.
  destruct (relabel_check rn rl0 (simplices r false) (simplices r false)) as [st0 [[]|e]].
  - eapply relabel_do_renames; eauto.
  - injection H as <- _ _. eexists. apply renamed_refl.
Qed.

Lemma renamed_simplicesOfOrder phi r r' k : renamed_by phi r r' -> simplicesOfOrder r' k = map phi (simplicesOfOrder r k).
Proof. intros (_ & _ & N & I). unfold simplicesOfOrder. rewrite N, I. now destruct (k <? r_nord r). Qed.

Lemma renamed_boundaryOperator phi r r' k : renamed_by phi r r' -> boundaryOperator r' k = boundaryOperator r k.
Proof.
  intros H. pose proof H as (B & _ & N & _). unfold boundaryOperator, bndk.
  rewrite (renamed_simplicesOfOrder phi r r' 0 H), map_length, N, B. reflexivity.
Qed.

Theorem renamed_homology phi r r' : renamed_by phi r r' ->
  (forall k, boundaryOperator r' k = boundaryOperator r k) /\
  (forall k, smithNormalForm r' k = smithNormalForm r k) /\
  (forall ks, bettiNumbers r' ks = bettiNumbers r ks) /\
  eulerCharacteristic r' = eulerCharacteristic r /\
  numberOfSimplicesOfOrder r' = numberOfSimplicesOfOrder r.
Proof.
  intros H. pose proof H as (_ & _ & N & _).
  assert (HB : forall k, boundaryOperator r' k = boundaryOperator r k) by (intros k; eapply renamed_boundaryOperator; eauto).
  assert (HS : forall k, smithNormalForm r' k = smithNormalForm r k) by (intros k; unfold smithNormalForm; now rewrite HB, N).
  assert (HN : numberOfSimplicesOfOrder r' = numberOfSimplicesOfOrder r).
  { unfold numberOfSimplicesOfOrder. rewrite N. apply map_ext. intros k.
    now rewrite (renamed_simplicesOfOrder phi r r' k H), map_length. }
  split; [exact HB|]. split; [exact HS|]. split.
  - intros ks. unfold bettiNumbers. rewrite N. apply map_ext. intros k. unfold betti1. now rewrite !HS.
  - split; [unfold eulerCharacteristic; now rewrite HN | exact HN].
Qed.

Theorem renamed_structure phi r r' : pinv r -> pinv r' -> renamed_by phi r r' ->
  forall s k i, assoc s (r_simp r) = Some (k, i) ->
  assoc (phi s) (r_simp r') = Some (k, i) /\
  faces r' (phi s) = map phi (faces r s) /\ cofaces r' (phi s) = map phi (cofaces r s) /\
  basisOf r' (phi s) = map phi (basisOf r s).
Proof.
  intros P P' (B & Sb & N & I) s k i As.
  assert (As' : assoc (phi s) (r_simp r') = Some (k, i)).
  { apply (pinv_at r' _ _ _ P'). now rewrite I, nth_error_map, (proj1 (pinv_at r s k i P) As). }
  split; [exact As'|]. unfold faces, cofaces, basisOf, bndk, bask. rewrite As', As, B, Sb, N.
  split; [|split].
  - destruct k as [|k']; [reflexivity|]. fold (idxk r' k'). rewrite I. apply names_of_col_map.
  - destruct (S k =? r_nord r); [reflexivity|]. fold (idxk r' (S k)). rewrite I. apply names_of_col_map.
  - fold (idxk r' 0). rewrite I. apply names_of_col_map.
Qed.

Lemma renamed_inj phi r r' : pinv r -> pinv r' -> renamed_by phi r r' ->
  forall x y, containsSimplex r x = true -> containsSimplex r y = true -> phi x = phi y -> x = y.
Proof.
  intros P P' R x y Cx Cy E. apply containsSimplex_assoc in Cx, Cy.
  destruct Cx as (k & i & Ax), Cy as (k' & i' & Ay).
  destruct (renamed_structure phi r r' P P' R x k i Ax) as [Ax' _].
  destruct (renamed_structure phi r r' P P' R y k' i' Ay) as [Ay' _].
  rewrite E, Ay' in Ax'. injection Ax' as <- <-.
  apply (pinv_at r _ _ _ P) in Ax, Ay. congruence.
Qed.

Lemma renamed_contains phi r r' s : pinv r -> pinv r' -> renamed_by phi r r' ->
  containsSimplex r' s = true <-> exists x, containsSimplex r x = true /\ s = phi x.
Proof.
  intros P P' R. rewrite (contains_iff_listed r' s P'). split.
  - intros (k & Hk). rewrite (renamed_simplicesOfOrder phi r r' k R) in Hk. apply in_map_iff in Hk.
    destruct Hk as (x & <- & Hx). exists x. split; [apply (contains_iff_listed r x P); eauto | reflexivity].
  - intros (x & Cx & ->). apply (contains_iff_listed r x P) in Cx. destruct Cx as (k & Hk). exists k.
    rewrite (renamed_simplicesOfOrder phi r r' k R). now apply in_map.
Qed.
