(* FiltCopy.v -- Filtration.copy(): whatever its outcome, what it returns satisfies the two filtration invariants
   (minv: shapes, exactly the simplices have a birth, a face is born no later than its cofaces; binv: the two
   bookkeeping tables agree), so everything C13 / C14 derive from them holds of the copy.  Plain Coq. *)
From Coq Require Import String ZArith Bool Arith List Lia.
From SV Require Import Rep Atomic Filtration FiltProofs FiltClosed FiltBook.
Import ListNotations.

Lemma both_alloc f r h : both f -> alloc (f_rep f) = (r, h) -> both (with_rep f r).
Proof.
  intros [M B] Ea. split; [|now apply binv_rep]. apply minv_same_obs; [|exact M].
  pose proof (same_obs_alloc (f_rep f)) as X. now rewrite Ea in X.
Qed.

Theorem f_copy_invariants hp f uid orders hp' c x : f_copy hp f uid orders = (hp', c, x) -> minv c /\ binv c.
Proof.
  apply (f_copy_I f (fun s => both (snd s))); cbn [snd].
  - intros _. exact both_setIndex.
  - intros _ c0 r h _. apply both_alloc.
  - intros _ c0 r h _ fs id c' y H Ea. apply both_add. eapply both_alloc; eauto.
  - apply both_new.
Qed.
