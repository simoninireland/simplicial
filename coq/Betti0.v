(* Betti0.v -- the 0th Betti number is the number of connected components of the 1-skeleton (C06),
   for every complex built by public operations: b_0 = n_0 - rank d_1 (Betti.v) and the order-1
   boundary operator is the vertex-edge incidence matrix of a graph (TwoOnes.v), whose rank is
   #vertices - #components (Components.v; components as counted by Mathematical Components' n_comp). *)
From Coq Require Import ZArith Lia.
From mathcomp Require Import ssreflect ssrfun ssrbool eqtype ssrnat seq choice fintype finfun fingraph bigop finset fingroup perm ssralg zmodp matrix mxalgebra.
From SV Require Import Rep Homology ListMat SnfCount Rank Betti Shapes Incidence Closed.
From SV Require Import Components TwoOnes.
Set Implicit Arguments.
Unset Strict Implicit.
Unset Printing Implicit Defensive.
Import GRing.Theory.
Local Open Scope ring_scope.

(* the order-1 boundary operator as a matrix over GF(2): rows = points, columns = edges *)
Definition B1 (r : rep) : 'M['F_2]_(nrows (boundaryOperator r 1), ncols (boundaryOperator r 1)) :=
  mxf (nrows (boundaryOperator r 1)) (ncols (boundaryOperator r 1)) (entry (rows_of (boundaryOperator r 1))).

Lemma B1E r (i : 'I_(nrows (boundaryOperator r 1))) (j : 'I_(ncols (boundaryOperator r 1))) :
  B1 r i j = b2f (mentry (boundaryOperator r 1) i j).
Proof. by rewrite mxE entry_rows_of //; exact/ltP. Qed.

Theorem betti0_components r : cinv r -> (1 < r_nord r)%coq_nat ->
  betti1 r 0 = Z.of_nat (n_comp (adjB (B1 r)) predT).
Proof.
move=> Hc Hn.
have HS := c_s r Hc.
have Hn0 := @boundary_nrows r 0 HS Hn.
have Hrank : (rk (boundaryOperator r 1) + n_comp (adjB (B1 r)) predT = nrows (boundaryOperator r 1))%N.
  apply: rank_graph => j.
  have Hj : (j < ncols (boundaryOperator r 1))%coq_nat by apply/ltP.
  have [a [b [Hab [Hb Hi]]]] := @edge_columns r Hc Hn j Hj.
  have Ha : (a < nrows (boundaryOperator r 1))%N by apply/ltP; lia.
  have Hb' : (b < nrows (boundaryOperator r 1))%N by apply/ltP.
  exists (Ordinal Ha), (Ordinal Hb'); split.
    by apply/eqP => /(congr1 val) /= E; lia.
  by move=> i; rewrite B1E Hi !eqb_eqn.
rewrite betti_formula rk_bop0 (@boundary_ncols r 0 HS) -Hn0.
by move: Hrank; rewrite -plusE; lia.
Qed.

(* without edges every point is its own component *)
Theorem betti0_no_edges r : sinv r -> (r_nord r <= 1)%coq_nat ->
  betti1 r 0 = Z.of_nat (length (simplicesOfOrder r 0)).
Proof. by move=> HS Hn; rewrite betti_formula rk_bop0 rk_bop_above // (@boundary_ncols r 0 HS); lia. Qed.

(* what adjacency means: the two points are distinct faces of a common edge *)
Lemma adjB_B1 r (a b : 'I_(nrows (boundaryOperator r 1))) :
  reflect (exists j : 'I_(ncols (boundaryOperator r 1)),
             [/\ a != b, mentry (boundaryOperator r 1) a j & mentry (boundaryOperator r 1) b j])
          (adjB (B1 r) a b).
Proof.
have E i j : (B1 r i j == 1) = mentry (boundaryOperator r 1) i j by rewrite B1E; case: (mentry _ _ _).
apply: (iffP existsP) => -[j].
- by rewrite !E => /and3P[H1 H2 H3]; exists j.
- by case=> H1 H2 H3; exists j; rewrite !E H1 H2 H3.
Qed.
