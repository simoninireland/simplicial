(* GenEffect.v -- C18 for every k, every n and every target: what k_skeleton(k) and ring(n) add when they succeed.
   k_skeleton(k): k+1 new points and one new edge for each of the C(k+1, 2) pairs of them, nothing else;
   ring(n): n new points p_0 .. p_(n-1) and the n edges {p_i, p_(i+1)}, {p_(n-1), p_0}, nothing else.
   Every accepted addSimplex adds exactly one simplex, new, with the faces it was given (AddEffect).  Plain Coq. *)
From Coq Require Import String ZArith Bool Arith List Lia.
From SV Require Import Names NamesFacts ListFacts Rep Shapes AddEffect Gen Counts.
Import ListNotations.
Open Scope nat_scope.

(* r' is r plus the simplices `news` (all new, each once), the i-th with faces fss_i; everything of r is kept *)
Record plus (r : rep) (news : list name) (fss : list (list name)) (r' : rep) : Prop := {
  p_s : sinv r';
  p_nd : NoDup news;
  p_new : forall s, In s news -> containsSimplex r s = false;
  p_mem : forall s, containsSimplex r' s = containsSimplex r s || memn s news;
  p_len : length news = length fss;
  p_faces : forall i s fs, nth_error news i = Some s -> nth_error fss i = Some fs ->
            orderOf r' s = Ok (length fs - 1) /\ forall t, In t (faces r' s) <-> In t fs;
  p_old : forall s, containsSimplex r s = true -> orderOf r' s = orderOf r s /\ faces r' s = faces r s }.

Lemma plus_nil r : sinv r -> plus r [] [] r.
Proof.
  intros Sr. refine {| p_s := Sr |}.
  - constructor.
  - intros x [].
  - intros x. simpl. now rewrite orb_false_r.
  - reflexivity.
  - intros [|i] x fs H; discriminate.
  - intros x _. split; reflexivity.
Qed.

Lemma plus_snoc r news fss r1 fs id attr r2 n : sinv r -> plus r news fss r1 ->
  addSimplex r1 fs id attr = (r2, Ok n) -> plus r (news ++ [n]) (fss ++ [fs]) r2.
Proof.
  intros Sr [S1 Nd New Mem Len Fa Old] H.
  destruct (addSimplex_effect r1 fs id attr r2 n S1 H) as (Hn & _ & Ho & Hf & Hold & Hall).
  assert (Hnr : containsSimplex r n = false /\ ~ In n news).
  { rewrite Mem in Hn. apply orb_false_iff in Hn. destruct Hn as [A B]. split; [exact A|]. intros Hin. apply memn_In in Hin. congruence. }
  constructor.
  - eapply addSimplex_sinv; eauto.
  - apply NoDup_app_snoc; [exact Nd|tauto].
  - intros s Hs. apply in_app_or in Hs. destruct Hs as [Hs|[<-|[]]]; [now apply New|tauto].
  - intros s. rewrite Hall, Mem. unfold memn. rewrite existsb_app. simpl. now rewrite orb_false_r, orb_assoc.
  - rewrite !app_length, Len. reflexivity.
  - intros i s fs0 Hs Hfs. rewrite nth_error_snoc in Hs. rewrite nth_error_snoc, <- Len in Hfs.
    destruct (i <? length news).
    + destruct (Fa i s fs0 Hs Hfs) as [O F].
      assert (C1 : containsSimplex r1 s = true) by (rewrite Mem; apply orb_true_iff; right; apply memn_In; eapply nth_error_In; eauto).
      destruct (Hold s C1) as (O2 & _ & F2 & _). rewrite O2, F2. auto.
    + destruct (i =? length news); [|discriminate]. injection Hs as <-. injection Hfs as <-. auto.
  - intros s Cs. assert (C1 : containsSimplex r1 s = true) by (rewrite Mem, Cs; reflexivity).
    destruct (Hold s C1) as (O2 & _ & F2 & _). destruct (Old s Cs) as [O F]. rewrite O2, F2. auto.
Qed.

Lemma add_points_plus : forall n r0 news fss r acc r' ss, sinv r0 -> plus r0 news fss r ->
  add_points n r acc = (r', Ok ss) ->
  exists pts, ss = acc ++ pts /\ length pts = n /\ plus r0 (news ++ pts) (fss ++ repeat [] n) r'.
Proof.
  induction n as [|n IH]; intros r0 news fss r acc r' ss S0 P H; simpl in H.
  - injection H as <- <-. exists []. rewrite !app_nil_r. auto.
  - destruct (addSimplex r [] None None) as [r1 [s|e]] eqn:E; simpl in H; [|discriminate].
    pose proof (plus_snoc r0 news fss r [] None None r1 s S0 P E) as P1.
    destruct (IH r0 _ _ r1 (acc ++ [s]) r' ss S0 P1 H) as (pts & -> & L & P').
    exists (s :: pts). split; [now rewrite <- app_assoc|]. split; [simpl; now rewrite L|].
    rewrite <- !app_assoc in P'. exact P'.
Qed.

Lemma add_edges_plus : forall ps r0 news fss r r', sinv r0 -> plus r0 news fss r ->
  add_edges r ps = (r', Ok tt) -> exists es, length es = length ps /\ plus r0 (news ++ es) (fss ++ ps) r'.
Proof.
  induction ps as [|p ps IH]; intros r0 news fss r r' S0 P H; simpl in H.
  - injection H as <-. exists []. rewrite !app_nil_r. auto.
  - destruct (addSimplex r p None None) as [r1 [s|e]] eqn:E; simpl in H; [|discriminate].
    pose proof (plus_snoc r0 news fss r p None None r1 s S0 P E) as P1.
    destruct (IH r0 _ _ r1 r' S0 P1 H) as (es & L & P').
    exists (s :: es). split; [simpl; now rewrite L|]. rewrite <- !app_assoc in P'. exact P'.
Qed.

Theorem k_skeleton_effect k r0 r' : sinv r0 -> k_skeleton k r0 = (r', Ok tt) ->
  exists pts es, length pts = S k /\ length es = binom (S k) 2 /\
    plus r0 (pts ++ es) (repeat [] (S k) ++ combs 2 pts) r'.
Proof.
  intros S0 H. unfold k_skeleton in H.
  destruct (add_points (S k) r0 []) as [r1 [ss|e]] eqn:E1; simpl in H; [|discriminate].
  destruct (add_points_plus (S k) r0 [] [] r0 [] r1 ss S0 (plus_nil r0 S0) E1) as (pts & -> & L & P1). simpl in P1.
  destruct (add_edges_plus (combs 2 pts) r0 _ _ r1 r' S0 P1 H) as (es & Le & P2). simpl in P2.
  exists pts, es. split; [exact L|]. split; [now rewrite Le, combs_count, L|exact P2].
Qed.

Theorem ring_effect n r0 r' : sinv r0 -> ring n r0 = (r', Ok tt) ->
  2 < n /\ exists pts es, length pts = n /\ length es = n /\
    plus r0 (pts ++ es)
         (repeat [] n ++ map (fun i => [nth i pts (NInt 0); nth (S i) pts (NInt 0)]) (seq 0 (n - 1))
                     ++ [[nth (n - 1) pts (NInt 0); nth 0 pts (NInt 0)]]) r'.
Proof.
  intros S0 H. unfold ring in H. destruct (n <=? 2) eqn:En; [discriminate|]. apply Nat.leb_gt in En. split; [exact En|].
  destruct (add_points n r0 []) as [r1 [ss|e]] eqn:E1; simpl in H; [|discriminate].
  destruct (add_points_plus n r0 [] [] r0 [] r1 ss S0 (plus_nil r0 S0) E1) as (pts & -> & L & P1). simpl in P1, H.
  destruct (add_edges r1 _) as [r2 [[]|e]] eqn:E2; simpl in H; [|discriminate].
  destruct (add_edges_plus _ r0 _ _ r1 r2 S0 P1 E2) as (es & Le & P2).
  destruct (addSimplex r2 _ None None) as [r3 [s|e]] eqn:E3; simpl in H; [|discriminate]. injection H as <-.
  pose proof (plus_snoc r0 _ _ r2 _ None None r3 s S0 P2 E3) as P3.
  exists pts, (es ++ [s]). split; [exact L|]. split.
  - rewrite app_length, Le, map_length, seq_length. simpl. lia.
  - rewrite <- !app_assoc in P3. exact P3.
Qed.
