(* DeleteEffect.v -- the exact effect of deleteSimplex (C02): it removes the star of the simplex
   -- the simplex and everything reached from it by coface steps -- and nothing else; every
   surviving simplex keeps its order and its faces.  Plain Coq. *)
From Coq Require Import String ZArith Bool Arith List Lia.
From SV Require Import Names NamesFacts ListFacts Rep Fresh Complex Atomic RepInv Shapes Incidence AddEffect
                       DelEffect StarOrder Closed Duality.
Import ListNotations.
Open Scope nat_scope.

Lemma forceDelete_membership r s k i : sinv r -> assoc s (r_simp r) = Some (k, i) ->
  forall t, containsSimplex (fst (forceDeleteSimplex r s)) t = containsSimplex r t && negb (name_eqb t s).
Proof.
  intros HS As t. unfold containsSimplex. rewrite (forceDelete_assoc r s k i (s_p r HS) As t).
  destruct (name_eqb t s); [now rewrite andb_false_r|]. rewrite andb_true_r. now destruct (assoc t (r_simp r)) as [[k0 i0]|].
Qed.

Lemma fold_delete_effect : forall (L : list name) rc,
  sinv rc -> NoDup L -> (forall t, In t L -> containsSimplex rc t = true) ->
  forall r' x, fold_left del_step L (rc, Ok tt) = (r', x) ->
  x = Ok tt /\ sinv r' /\
  (forall t, containsSimplex r' t = containsSimplex rc t && negb (memn t L)) /\
  (forall t, containsSimplex r' t = true ->
     orderOf r' t = orderOf rc t /\ forall u, In u (faces r' t) <-> In u (faces rc t) /\ ~ In u L).
Proof.
  induction L as [|s L IH]; intros rc HS Hnd Hin r' x H; simpl in H.
  - injection H as <- <-. split; [reflexivity|]. split; [exact HS|]. split.
    + intros t. simpl. now rewrite andb_true_r.
    + intros t _. split; [reflexivity|]. intros u. simpl. tauto.
  - inversion Hnd as [|y ys Hy Hys]; subst.
    assert (Hct : containsSimplex rc s = true) by (apply Hin; now left).
    apply containsSimplex_assoc in Hct. destruct Hct as (k & i & As).
    pose proof (del_ok rc s k i As) as Hok. rewrite Hok in H.
    set (r1 := fst (forceDeleteSimplex rc s)) in *.
    assert (HS1 : sinv r1) by (apply (d_sinv rc s k i HS As)).
    pose proof (forceDelete_membership rc s k i HS As) as Hm1. fold r1 in Hm1.
    assert (Hin1 : forall t, In t L -> containsSimplex r1 t = true).
    { intros t Ht. rewrite Hm1. rewrite (Hin t (or_intror Ht)). simpl.
      destruct (name_eqb_spec t s) as [->|]; [contradiction | reflexivity]. }
    destruct (IH r1 HS1 Hys Hin1 r' x H) as (Hx & HS' & Hmem & Hfr).
    split; [exact Hx|]. split; [exact HS'|]. split.
    + intros t. rewrite Hmem, Hm1. unfold memn. simpl. rewrite (name_eqb_sym t s).
      destruct (containsSimplex rc t), (name_eqb s t), (existsb (name_eqb t) L); reflexivity.
    + intros t Ht. destruct (Hfr t Ht) as [Ho Hf].
      assert (Hc1 : containsSimplex r1 t = true).
      { rewrite Hmem in Ht. apply andb_prop in Ht. tauto. }
      assert (Hne : t <> s) by (intros ->; rewrite Hm1, name_eqb_refl, andb_false_r in Hc1; discriminate).
      rewrite Hm1 in Hc1. apply andb_prop in Hc1. destruct Hc1 as [Hc _].
      apply containsSimplex_assoc in Hc. destruct Hc as (kt & it & At).
      destruct (d_pos rc s k i HS As t kt it Hne At) as (_ & A1 & _). fold r1 in A1.
      destruct (d_faces rc s k i HS As t kt it Hne At) as [Hf1 _]. fold r1 in Hf1.
      split.
      * rewrite Ho. unfold orderOf. now rewrite A1, At.
      * intros u. rewrite Hf, Hf1. simpl. intuition.
Qed.

Theorem deleteSimplex_effect r s r' x : sinv r -> containsSimplex r s = true ->
  deleteSimplex r s = (r', x) ->
  x = Ok tt /\ sinv r' /\
  (forall t, containsSimplex r' t = true <-> containsSimplex r t = true /\ ~ exists j, cchain r j s t) /\
  (forall t, containsSimplex r' t = true ->
     orderOf r' t = orderOf r t /\ forall u, In u (faces r' t) <-> In u (faces r t)).
Proof.
  intros HS Hc H. unfold deleteSimplex in H.
  apply containsSimplex_assoc in Hc. destruct Hc as (k & is & As).
  destruct (partOf r s true false) as [L|e] eqn:EP.
  2: { unfold partOf, orderOf in EP. rewrite As in EP. discriminate. }
  destruct (star_positions r HS s k is L As EP) as (Hnd & Hin & _).
  pose proof (partOf_spec r HS s k is true L As EP) as Hstar.
  destruct (fold_delete_effect L r HS Hnd Hin r' x H) as (Hx & HS' & Hmem & Hfr).
  split; [exact Hx|]. split; [exact HS'|]. split.
  - intros t. rewrite Hmem, andb_true_iff, negb_true_iff. rewrite <- Hstar. split.
    + intros [H1 H2]. split; [exact H1|]. intros Hl. apply memn_In in Hl. congruence.
    + intros [H1 H2]. split; [exact H1|]. destruct (memn t L) eqn:E; [|reflexivity]. apply memn_In in E. contradiction.
  - intros t Ht. destruct (Hfr t Ht) as [Ho Hf]. split; [exact Ho|]. intros u. rewrite Hf. split; [tauto|].
    intros Hu. split; [exact Hu|]. intros HuL.
    (* a deleted face would drag t into the star *)
    apply Hstar in HuL. destruct HuL as (j & Hj).
    assert (HtL : In t L).
    { apply Hstar. exists (S j). apply (cchain_snoc r j s t u Hj). now apply (cofaces_inverse_of_faces r HS t u). }
    rewrite Hmem in Ht. apply andb_prop in Ht. destruct Ht as [_ Ht]. apply negb_true_iff in Ht.
    apply memn_In in HtL. congruence.
Qed.
