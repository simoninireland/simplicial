(* MinCycle.v -- the minimal-cycle lemma (C11): in a complex that meets the vertex-set reading,
   k+3 distinct simplices of order k+1 whose mod-2 boundary vanishes (every (k)-simplex is a face
   of an even number of them) are the k+3 facets of ONE set of k+3 points.  This is what makes
   `_isClosed` a correct test in `_completePotentialSimplices`.  Plain Coq. *)
From Coq Require Import String ZArith Bool Arith List Lia.
From SV Require Import Names NamesFacts ListFacts Rep Fresh Complex Atomic RepInv Shapes Incidence AddEffect
                       Closed ClosedReach AddBasis BasisInv Duality DeleteEffect VInv AwbSpec VSets DD.
Import ListNotations.
Open Scope nat_scope.

Lemma pigeon_surj {A B} (Rb : A -> B -> bool) (l : list A) (m : list B) :
  NoDup l -> length m <= length l ->
  (forall x, In x l -> exists y, In y m /\ Rb x y = true) ->
  (forall x x' y, In x l -> In x' l -> Rb x y = true -> Rb x' y = true -> x = x') ->
  forall y, In y m -> exists x, In x l /\ Rb x y = true.
Proof.
  intros Hl Hlen Htot Hinj y Hy.
  destruct (existsb (fun x => Rb x y) l) eqn:E.
  - apply existsb_exists in E. exact E.
  - exfalso. apply in_split in Hy. destruct Hy as (m1 & m2 & ->).
    assert (length l <= length (m1 ++ m2)).
    { apply (pigeon (fun x y' => Rb x y' = true)); auto.
      intros x Hx. destruct (Htot x Hx) as (y' & Hy' & R'). exists y'. split; [|exact R'].
      apply in_app_or in Hy'. apply in_or_app. destruct Hy' as [H|[H|H]]; auto. subst y'.
      exfalso. assert (F : existsb (fun x0 => Rb x0 y) l = true) by (apply existsb_exists; eauto).
      congruence. }
    rewrite app_length in *. simpl in Hlen. lia.
Qed.

Lemma parity_app l1 l2 : parity (l1 ++ l2) = xorb (parity l1) (parity l2).
Proof. induction l1 as [|b t IH]; simpl; [now destruct (parity l2)|]. rewrite IH. now rewrite xorb_assoc. Qed.

Lemma parity_true_ex {A} (g : A -> bool) l : parity (map g l) = true -> exists x, In x l /\ g x = true.
Proof.
  induction l as [|a t IH]; simpl; [discriminate|]. intros H. destruct (g a) eqn:Ea; [exists a; auto|].
  assert (H' : parity (map g t) = true) by (destruct (parity (map g t)); auto).
  destruct (IH H') as (x & Hx & Gx). exists x. auto.
Qed.

Lemma parity_other {A} (g : A -> bool) (l : list A) f : NoDup l -> In f l -> g f = true ->
  parity (map g l) = false -> exists f', In f' l /\ f' <> f /\ g f' = true.
Proof.
  intros Hnd Hf Gf Hp. apply in_split in Hf. destruct Hf as (l1 & l2 & ->).
  rewrite map_app, parity_app in Hp. simpl in Hp. rewrite Gf in Hp.
  assert (Hq : parity (map g (l1 ++ l2)) = true).
  { rewrite map_app, parity_app. destruct (parity (map g l1)), (parity (map g l2)); simpl in *; congruence. }
  destruct (parity_true_ex g _ Hq) as (x & Hx & Gx). exists x. split; [|split; [|exact Gx]].
  - apply in_app_or in Hx. apply in_or_app. destruct Hx; [left|right; right]; auto.
  - intros ->. apply NoDup_remove_2 in Hnd. contradiction.
Qed.

Lemma two_missing (a b : list name) p q : NoDup a -> NoDup b -> incl a b -> In p b -> In q b -> p <> q ->
  ~ In p a -> ~ In q a -> length a + 2 <= length b.
Proof.
  intros Ha Hb Hi Hp Hq Hpq Np Nq.
  assert (H : length (p :: q :: a) <= length b).
  { apply NoDup_incl_length.
    - constructor; [intros [E|E]; [congruence|contradiction]|]. constructor; auto.
    - intros z [<-|[<-|Hz]]; auto. }
  simpl in H. lia.
Qed.

Lemma one_short_iff (a b : list name) : NoDup a -> NoDup b -> incl a b -> length b = S (length a) ->
  exists m, In m b /\ forall x, In x a <-> In x b /\ x <> m.
Proof.
  intros Ha Hb Hi Hl. destruct (one_short a b Ha Hb Hi Hl) as (m & Hm & Nm & Hall).
  exists m. split; [exact Hm|]. intros x. split.
  - intros Hx. split; [now apply Hi|]. intros ->. contradiction.
  - intros [Hx Nx]. destruct (Hall x Hx); [contradiction|assumption].
Qed.

Lemma filter_neq_length (a : name) : forall l, NoDup l -> In a l ->
  length l = S (length (filter (fun x => negb (name_eqb a x)) l)).
Proof.
  assert (G : forall l, ~ In a l -> filter (fun x => negb (name_eqb a x)) l = l).
  { induction l as [|b l IHl]; intros Hn; simpl; auto.
    destruct (name_eqb a b) eqn:Eb; [apply name_eqb_eq in Eb; subst b; exfalso; apply Hn; now left|].
    simpl. f_equal. apply IHl. intros H. apply Hn. now right. }
  induction l as [|b t IH]; intros Hnd Ha; [destruct Ha|]. inversion Hnd as [|? ? Hb Ht]; subst.
  simpl. destruct (name_eqb a b) eqn:E; simpl.
  - apply name_eqb_eq in E. subst b. f_equal. now rewrite G.
  - f_equal. apply IH; auto. destruct Ha as [->|H]; auto. rewrite name_eqb_refl in E. discriminate.
Qed.

Lemma two_members (l : list name) : NoDup l -> 2 <= length l -> exists a b, In a l /\ In b l /\ b <> a.
Proof.
  destruct l as [|a [|b t]]; simpl; try lia. intros Hnd _. exists a, b. split; [now left|]. split; [right; now left|].
  intros ->. inversion Hnd as [|? ? Hn _]. apply Hn. now left.
Qed.

Lemma three_members (l : list name) : NoDup l -> 3 <= length l ->
  exists a b c, In a l /\ In b l /\ In c l /\ a <> b /\ a <> c /\ b <> c.
Proof.
  destruct l as [|a [|b [|c t]]]; simpl; try lia. intros Hnd _. exists a, b, c.
  inversion Hnd as [|? ? Ha Hnd']; subst. inversion Hnd' as [|? ? Hb _]; subst.
  split; [now left|]. split; [right; now left|]. split; [right; right; now left|].
  split; [intros ->; apply Ha; now left|]. split; [intros ->; apply Ha; right; now left|].
  intros ->. apply Hb. now left.
Qed.

Lemma order_of_basis r t B : vinv r -> containsSimplex r t = true -> NoDup B -> sameset (basisOf r t) B ->
  exists j, assoc t (r_simp r) = Some (length B - 1, j).
Proof.
  intros Hv Ct HB Ss. apply containsSimplex_assoc in Ct. destruct Ct as (k & j & A). exists j.
  pose proof (v_card r Hv t k j A) as Lc.
  rewrite (NoDup_same_length (basisOf r t) B (basis_nodup r t (vinv_pinv r Hv)) HB Ss) in Lc.
  rewrite Lc. simpl. now rewrite Nat.sub_0_r.
Qed.

Section MC.
  Variable r : rep.
  Hypothesis Hv : vinv r.
  Let HS : sinv r := vinv_sinv r Hv.
  Let P : pinv r := s_p r HS.

  Variable k : nat.
  Variable fs : list name.
  Hypothesis Hnd : NoDup fs.
  Hypothesis Hlen : length fs = S (S (S k)).
  Hypothesis Hord : forall f, In f fs -> exists j, assoc f (r_simp r) = Some (S k, j).
  Hypothesis Hcl : forall w, parity (map (fun f => memn w (faces r f)) fs) = false.

  Lemma fs_contains f : In f fs -> containsSimplex r f = true.
  Proof. intros H. destruct (Hord f H) as (j & A). exact (assoc_contains r f (S k) j A). Qed.

  Lemma fs_card f : In f fs -> length (basisOf r f) = S (S k).
  Proof. intros H. destruct (Hord f H) as (j & A). exact (v_card r Hv f (S k) j A). Qed.

  Lemma fs_incl_eq f f' : In f fs -> In f' fs -> incl (basisOf r f) (basisOf r f') -> f = f'.
  Proof.
    intros Hf Hf' Hi. apply (v_uniq r Hv); try now apply fs_contains.
    intros z. split; [apply Hi|].
    apply NoDup_length_incl; auto; [apply basis_nodup; exact P|]. rewrite (fs_card f Hf), (fs_card f' Hf'). lia.
  Qed.

  Lemma drop_face f p u : In f fs -> In u (faces r f) -> In p (basisOf r f) -> ~ In p (basisOf r u) ->
    forall z, In z (basisOf r u) <-> In z (basisOf r f) /\ z <> p.
  Proof.
    intros Hf Hu Hp Np. destruct (Hord f Hf) as (j & A).
    destruct (face_basis_char r Hv f k j u A Hu) as (p0 & Hp0 & C).
    assert (p0 = p). { destruct (name_eq_dec p0 p) as [E|E]; [exact E|]. exfalso. apply Np. apply C. split; auto. }
    subst p0. exact C.
  Qed.

  (* a member that has two different faces of f among its faces is f *)
  Lemma two_facets f f' u u' p p' : In f fs -> In f' fs ->
    In u (faces r f) -> In u' (faces r f) -> In p (basisOf r f) -> In p' (basisOf r f) ->
    ~ In p (basisOf r u) -> ~ In p' (basisOf r u') -> p <> p' ->
    In u (faces r f') -> In u' (faces r f') -> f = f'.
  Proof.
    intros Hf Hf' Hu Hu' Hp Hp' Np Np' Hpp Huf Huf'. apply (fs_incl_eq f f' Hf Hf').
    intros z Hz. destruct (Hord f' Hf') as (j' & A').
    destruct (name_eq_dec z p) as [E|E].
    - subst z. apply (face_basis_sub r Hv f' k j' u' A' Huf').
      apply (drop_face f p' u' Hf Hu' Hp' Np'). split; auto.
    - apply (face_basis_sub r Hv f' k j' u A' Huf).
      apply (drop_face f p u Hf Hu Hp Np). split; auto.
  Qed.

  Section Base.
    Variable f1 : name.
    Hypothesis Hf1 : In f1 fs.
    Let others := filter (fun x => negb (name_eqb f1 x)) fs.
    (* Rb p f': f' is another member, and the face of f1 that drops the point p is a face of f' too *)
    Let Rb (p f' : name) : bool :=
      memn f' others &&
      existsb (fun u => negb (memn p (basisOf r u)) && memn u (faces r f')) (faces r f1).

    Lemma Rb_spec p f' : Rb p f' = true <->
      In f' others /\ exists u, In u (faces r f1) /\ ~ In p (basisOf r u) /\ In u (faces r f').
    Proof.
      unfold Rb. rewrite andb_true_iff, memn_In, existsb_exists.
      setoid_rewrite andb_true_iff. setoid_rewrite negb_true_iff. setoid_rewrite memn_false. setoid_rewrite memn_In.
      reflexivity.
    Qed.

    Lemma others_length : length others = S (S k).
    Proof. pose proof (filter_neq_length f1 fs Hnd Hf1) as H. fold others in H. lia. Qed.

    Lemma Rb_total p : In p (basisOf r f1) -> exists f', In f' others /\ Rb p f' = true.
    Proof.
      intros Hp. destruct (Hord f1 Hf1) as (j & A).
      destruct (every_point_dropped r Hv f1 k j p A Hp) as (u & Hu & Np).
      destruct (parity_other (fun f => memn u (faces r f)) fs f1 Hnd Hf1) as (f' & Hf' & Ne & Hm).
      - now apply memn_In.
      - apply Hcl.
      - assert (Ho : In f' others) by (apply In_filter_neq; auto).
        exists f'. split; [exact Ho|]. apply Rb_spec. split; [exact Ho|]. exists u. split; auto. split; auto. now apply memn_In.
    Qed.

    Lemma Rb_inj p p' f' : In p (basisOf r f1) -> In p' (basisOf r f1) ->
      Rb p f' = true -> Rb p' f' = true -> p = p'.
    Proof.
      intros Hp Hp' R1 R2. apply Rb_spec in R1, R2.
      destruct R1 as (Hf' & u & Hu & Np & Huf). destruct R2 as (_ & u' & Hu' & Np' & Huf').
      destruct (name_eq_dec p p') as [E|E]; [exact E|]. exfalso.
      apply In_filter_neq in Hf'. destruct Hf' as [Hf' Ne]. apply Ne. symmetry.
      eapply (two_facets f1 f' u u' p p'); eauto.
    Qed.

    (* every other member shares a facet with f1 *)
    Lemma Rb_surj f' : In f' others -> exists p, In p (basisOf r f1) /\ Rb p f' = true.
    Proof.
      intros Hf'. apply (pigeon_surj Rb (basisOf r f1) others); auto.
      - apply basis_nodup; exact P.
      - rewrite others_length, (fs_card f1 Hf1). lia.
      - apply Rb_total.
      - intros x x' y Hx Hx' R1 R2. eapply Rb_inj; eauto.
    Qed.

    (* a facet of f1 lies in exactly one other member *)
    Lemma Rb_fun p f' f'' : In p (basisOf r f1) -> Rb p f' = true -> Rb p f'' = true -> f' = f''.
    Proof.
      intros Hp R1 R2. destruct (name_eq_dec f' f'') as [E|E]; [exact E|]. exfalso.
      pose proof (proj1 (Rb_spec p f') R1) as [Ho1 _]. pose proof (proj1 (Rb_spec p f'') R2) as [Ho2 _].
      set (l' := filter (fun x => negb (name_eqb p x)) (basisOf r f1)).
      set (m' := filter (fun x => negb (name_eqb f' x)) others).
      assert (Hl : length (basisOf r f1) = S (length l')) by (apply filter_neq_length; auto; apply basis_nodup; exact P).
      assert (Hm : length others = S (length m')) by (apply filter_neq_length; auto; now apply NoDup_filter).
      destruct (pigeon_surj Rb l' m') with (y := f'') as (x & Hx & Rx).
      - apply NoDup_filter. apply basis_nodup; exact P.
      - rewrite others_length in Hm. rewrite (fs_card f1 Hf1) in Hl. lia.
      - intros x Hx. apply In_filter_neq in Hx. destruct Hx as [Hx Nx].
        destruct (Rb_total x Hx) as (y & Hy & Ry). exists y. split; [|exact Ry].
        apply In_filter_neq. split; [exact Hy|]. intros ->. apply Nx. eapply Rb_inj; eauto.
      - intros x x' y Hx Hx' Rx Rx'. apply In_filter_neq in Hx, Hx'. eapply Rb_inj; [| |exact Rx|exact Rx']; tauto.
      - apply In_filter_neq. split; auto.
      - apply In_filter_neq in Hx. destruct Hx as [Hx Nx]. apply Nx. eapply Rb_inj; eauto.
    Qed.

    Lemma other_shape p f' : In p (basisOf r f1) -> Rb p f' = true ->
      exists y, In y (basisOf r f') /\ ~ In y (basisOf r f1) /\
                forall z, In z (basisOf r f') <-> z = y \/ (In z (basisOf r f1) /\ z <> p).
    Proof.
      intros Hp R. apply Rb_spec in R. destruct R as (Ho & u & Hu & Np & Huf).
      apply In_filter_neq in Ho. destruct Ho as [Hf' Ne].
      destruct (Hord f' Hf') as (j' & A').
      destruct (face_basis_char r Hv f' k j' u A' Huf) as (y & Hy & Cy).
      pose proof (drop_face f1 p u Hf1 Hu Hp Np) as Cu.
      assert (Ny : ~ In y (basisOf r f1)).
      { intros Hin. apply Ne. apply (fs_incl_eq f' f1 Hf' Hf1).
        intros z Hz. destruct (name_eq_dec z y) as [->|Nz]; [exact Hin|].
        assert (Hzu : In z (basisOf r u)) by (apply Cy; auto). apply Cu in Hzu. tauto. }
      exists y. split; [exact Hy|]. split; [exact Ny|]. intros z. split.
      - intros Hz. destruct (name_eq_dec z y) as [->|Nz]; [now left|]. right. apply Cu. apply Cy. auto.
      - intros [->|Hz]; [exact Hy|]. apply Cu in Hz. apply Cy in Hz. tauto.
    Qed.
  End Base.

  Lemma share f f' : In f fs -> In f' fs -> f <> f' -> exists w, In w (faces r f) /\ In w (faces r f').
  Proof.
    intros Hf Hf' Ne. destruct (Rb_surj f Hf f') as (p & Hp & R).
    - apply In_filter_neq. auto.
    - apply (Rb_spec f) in R. destruct R as (_ & u & Hu & _ & Hu2). eauto.
  Qed.

  Theorem min_cycle : exists B, NoDup B /\ length B = S (S (S k)) /\
     (forall f, In f fs -> incl (basisOf r f) B) /\
     (forall p, In p B -> exists f, In f fs /\ In p (basisOf r f)).
  Proof.
    destruct (two_members fs Hnd) as (f1 & f2 & Hf1 & Hf2 & N12); [lia|].
    destruct (Rb_surj f1 Hf1 f2) as (p2 & Hp2 & R2); [apply In_filter_neq; auto|].
    destruct (other_shape f1 Hf1 p2 f2 Hp2 R2) as (y & Hy & Ny & C2).
    exists (y :: basisOf r f1).
    assert (Hall : forall f, In f fs -> incl (basisOf r f) (y :: basisOf r f1)).
    { intros f3 Hf3 z Hz.
      destruct (name_eq_dec f3 f1) as [->|N31]; [now right|].
      destruct (name_eq_dec f3 f2) as [->|N32]; [apply C2 in Hz; destruct Hz as [->|[Hz _]]; [now left|now right]|].
      destruct (Rb_surj f1 Hf1 f3) as (p3 & Hp3 & R3); [apply In_filter_neq; auto|].
      destruct (other_shape f1 Hf1 p3 f3 Hp3 R3) as (q & Hq & Nq & C3).
      assert (N23 : p2 <> p3). { intros ->. apply N32. symmetry. eapply (Rb_fun f1 Hf1 p3); eauto. }
      destruct (name_eq_dec q y) as [->|Nqy]; [apply C3 in Hz; destruct Hz as [->|[Hz _]]; [now left|now right]|].
      exfalso.
      destruct (share f2 f3 Hf2 Hf3) as (w & Hw2 & Hw3); [congruence|].
      destruct (Hord f2 Hf2) as (j2 & A2). destruct (Hord f3 Hf3) as (j3 & A3).
      destruct (face_is_simplex r HS f2 w k j2 A2 Hw2) as (iw & Aw).
      pose proof (v_card r Hv w k iw Aw) as Lw.
      pose proof (face_basis_sub r Hv f2 k j2 w A2 Hw2) as S2.
      pose proof (face_basis_sub r Hv f3 k j3 w A3 Hw3) as S3.
      assert (Hin : forall z0, In z0 (basisOf r w) -> In z0 (basisOf r f1) /\ z0 <> p2 /\ z0 <> p3).
      { intros z0 Hz0. pose proof (S2 z0 Hz0) as H2. pose proof (S3 z0 Hz0) as H3.
        apply C2 in H2. apply C3 in H3.
        destruct H2 as [->|[H2 H2']].
        - destruct H3 as [E|[H3 _]]; [congruence|contradiction].
        - destruct H3 as [->|[_ H3']]; [contradiction|]. auto. }
      assert (L : length (basisOf r w) + 2 <= length (basisOf r f1)).
      { apply (two_missing _ _ p2 p3); auto; try (apply basis_nodup; exact P).
        - intros z0 Hz0. exact (proj1 (Hin z0 Hz0)).
        - intros H. destruct (Hin p2 H) as (_ & N & _). now apply N.
        - intros H. destruct (Hin p3 H) as (_ & _ & N). now apply N. }
      rewrite Lw, (fs_card f1 Hf1) in L. lia. }
    split; [constructor; [exact Ny | apply basis_nodup; exact P]|].
    split; [simpl; now rewrite (fs_card f1 Hf1)|].
    split; [exact Hall|].
    intros p [<-|Hp]; [exists f2; auto | exists f1; auto].
  Qed.
  (* seen from the common point set B, every member misses exactly one point, and different
     members miss different points; so any two points of B lie together in some member *)
  Section Cover.
    Variable B : list name.
    Hypothesis HB : NoDup B.
    Hypothesis LB : length B = S (S (S k)).
    Hypothesis IB : forall f, In f fs -> incl (basisOf r f) B.

    Lemma missed f : In f fs -> exists m, In m B /\ forall x, In x (basisOf r f) <-> In x B /\ x <> m.
    Proof.
      intros Hf. apply one_short_iff; auto; [apply basis_nodup; exact P | rewrite (fs_card f Hf); exact LB].
    Qed.

    Lemma same_missed f f' m : In f fs -> In f' fs ->
      (forall x, In x (basisOf r f) <-> In x B /\ x <> m) -> (forall x, In x (basisOf r f') <-> In x B /\ x <> m) -> f = f'.
    Proof.
      intros Hf Hf' C C'. apply (v_uniq r Hv); try now apply fs_contains.
      intros x. rewrite C, C'. tauto.
    Qed.

    Lemma pair_covered p q : In p B -> In q B -> exists f, In f fs /\ In p (basisOf r f) /\ In q (basisOf r f).
    Proof.
      intros Hp Hq. destruct (three_members fs Hnd) as (fa & fb & fc & Ha & Hb & Hc & Nab & Nac & Nbc); [lia|].
      assert (T : forall f, In f fs -> (In p (basisOf r f) /\ In q (basisOf r f)) \/
                   (forall x, In x (basisOf r f) <-> In x B /\ x <> p) \/
                   (forall x, In x (basisOf r f) <-> In x B /\ x <> q)).
      { intros f Hf. destruct (missed f Hf) as (m & Hm & C).
        destruct (name_eq_dec m p) as [->|Np]; [right; left; exact C|].
        destruct (name_eq_dec m q) as [->|Nq]; [right; right; exact C|].
        left. split; apply C; auto. }
      destruct (T fa Ha) as [Ga|Ga]; [exists fa; split; [exact Ha | exact Ga]|].
      destruct (T fb Hb) as [Gb|Gb]; [exists fb; split; [exact Hb | exact Gb]|].
      destruct (T fc Hc) as [Gc|Gc]; [exists fc; split; [exact Hc | exact Gc]|].
      exfalso.
      destruct Ga as [Ga|Ga], Gb as [Gb|Gb], Gc as [Gc|Gc];
        first [ apply Nab; eapply same_missed; eauto; fail
              | apply Nac; eapply same_missed; eauto; fail
              | apply Nbc; eapply same_missed; eauto; fail ].
    Qed.
    Lemma every_point_missed m : In m B -> exists f, In f fs /\ forall x, In x (basisOf r f) <-> In x B /\ x <> m.
    Proof.
      intros Hm.
      set (Rb := fun (f m0 : name) => negb (memn m0 (basisOf r f)) && memn m0 B).
      assert (RbS : forall f m0, Rb f m0 = true <-> ~ In m0 (basisOf r f) /\ In m0 B).
      { intros f m0. unfold Rb. now rewrite andb_true_iff, negb_true_iff, memn_false, memn_In. }
      assert (Rs : forall f m0, In f fs -> Rb f m0 = true -> forall x, In x (basisOf r f) <-> In x B /\ x <> m0).
      { intros f m0 Hf R. apply RbS in R. destruct R as [R1 R2]. destruct (missed f Hf) as (m1 & Hm1 & C).
        destruct (name_eq_dec m1 m0) as [->|Ne]; [exact C|]. exfalso. apply R1. apply C. auto. }
      destruct (pigeon_surj Rb fs B Hnd) with (y := m) as (f & Hf & R); auto.
      - rewrite LB, Hlen. lia.
      - intros f Hf. destruct (missed f Hf) as (m1 & Hm1 & C). exists m1. split; [exact Hm1|].
        apply RbS. split; [|exact Hm1]. intros E. apply C in E. tauto.
      - intros f f' y Hf Hf' R R'. eapply same_missed; eauto.
      - exists f. split; [exact Hf|]. now apply Rs.
    Qed.

    Lemma facets_in_fs t j : assoc t (r_simp r) = Some (S (S k), j) -> sameset (basisOf r t) B ->
      forall u, In u (faces r t) -> In u fs.
    Proof.
      intros At Ss u Hu. destruct (face_basis_char r Hv t (S k) j u At Hu) as (p & Hp & C).
      destruct (every_point_missed p) as (f & Hf & Cf); [now apply Ss|].
      assert (u = f); [|now subst].
      apply (v_uniq r Hv).
      - destruct (face_is_simplex r HS t u (S k) j At Hu) as (i & Au). exact (assoc_contains r u (S k) i Au).
      - now apply fs_contains.
      - intros x. rewrite C, Cf. rewrite (Ss x). tauto.
    Qed.

    Lemma faces_sameset_fs t j : assoc t (r_simp r) = Some (S (S k), j) -> sameset (basisOf r t) B ->
      sameset (faces r t) fs.
    Proof.
      intros At Ss x. split; [apply (facets_in_fs t j At Ss)|].
      apply NoDup_length_incl; [apply faces_nodup; exact P| |intros u Hu; eapply facets_in_fs; eauto].
      rewrite (c_f r (vinv_cinv r Hv) t (S k) j At), Hlen. lia.
    Qed.
  End Cover.
End MC.
