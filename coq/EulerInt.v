(* EulerInt.v -- the Euler integral as a sum over simplices (C19).  Plain Coq. *)
From Coq Require Import String ZArith Bool Arith List Lia Permutation.
From SV Require Import Names NamesFacts ListFacts Rep Complex RepInv ReachGen Shapes DelEffect BasisInv DeleteEffect VInv AwbSpec VReach VSets Restrict Gen Closed.
Import ListNotations.
Open Scope nat_scope.

Definition aframe (r0 r1 : rep) : Prop :=
  forall t, containsSimplex r1 t = true -> containsSimplex r0 t = true /\ assoc t (r_attr r1) = assoc t (r_attr r0).
Lemma aframe_refl r : aframe r r. Proof. intros t H; auto. Qed.
Lemma aframe_trans a b c : aframe a b -> aframe b c -> aframe a c.
Proof. intros H1 H2 t Ht. destruct (H2 t Ht) as [Hb E2]. destruct (H1 t Hb) as [Ha E1]. split; congruence. Qed.

Lemma forceDelete_aframe r s r' x : sinv r -> forceDeleteSimplex r s = (r', x) -> aframe r r'.
Proof.
  intros HS H. destruct (assoc s (r_simp r)) as [[k i]|] eqn:As.
  - assert (E : r' = fst (forceDeleteSimplex r s)) by now rewrite H.
    intros t Ht. rewrite E in Ht. destruct (d_sub r s k i HS As t Ht) as [Ct Hne]. split; auto.
    rewrite E. unfold forceDeleteSimplex. rewrite As. cbv zeta.
    destruct ((S k =? r_nord r) && _); cbn [fst r_attr]; now apply assoc_del_other.
  - unfold forceDeleteSimplex in H. rewrite As in H. injection H as <- _. apply aframe_refl.
Qed.

(* carried through deleteSimplex: the frame, with the shape invariant its forceDelete step needs *)
Definition FI (r0 : rep) (r1 : rep) : Prop := sinv r1 /\ aframe r0 r1.
Lemma deleteSimplex_FI r0 r s r' x : FI r0 r -> deleteSimplex r s = (r', x) -> FI r0 r'.
Proof.
  apply (deleteSimplex_inv (FI r0)); [intros r1 [Hs _]; exact Hs|].
  intros r1 s1 r2 x2 [HS1 HF1] Hco E. split.
  - eapply forceDeleteSimplex_sinv; eauto.
  - eapply aframe_trans; [exact HF1|]. eapply forceDelete_aframe; eauto.
Qed.
Lemma restrict_aframe r bs r' x : sinv r -> restrictBasisTo r bs = (r', x) -> aframe r r'.
Proof.
  intros HS H.
  assert (F : FI r r') by (eapply (restrictBasisTo_I (FI r) (deleteSimplex_FI r)); [|exact H]; split; [exact HS|apply aframe_refl]).
  now destruct F.
Qed.

Fixpoint zsum {A} (f : A -> Z) (l : list A) : Z := match l with [] => 0%Z | x :: t => (f x + zsum f t)%Z end.
Lemma zsum_app {A} (f : A -> Z) l1 l2 : zsum f (l1 ++ l2) = (zsum f l1 + zsum f l2)%Z.
Proof. induction l1; simpl; lia. Qed.
Lemma zsum_perm {A} (f : A -> Z) l1 l2 : Permutation l1 l2 -> zsum f l1 = zsum f l2.
Proof. induction 1; simpl; lia. Qed.
Lemma zsum_ext_in {A} (f g : A -> Z) l : (forall x, In x l -> f x = g x) -> zsum f l = zsum g l.
Proof. induction l; simpl; intros H; [reflexivity|]. rewrite (H a), IHl; auto. Qed.
Lemma zsum_map {A B} (f : B -> Z) (g : A -> B) l : zsum f (map g l) = zsum (fun x => f (g x)) l.
Proof. induction l; simpl; congruence. Qed.
Lemma zsum_filter {A} (f : A -> Z) (p : A -> bool) l : zsum f (filter p l) = zsum (fun x => if p x then f x else 0%Z) l.
Proof. induction l; simpl; [reflexivity|]. destruct (p a); simpl; lia. Qed.
Lemma zsum_const {A} (c : Z) (l : list A) : zsum (fun _ => c) l = (c * Z.of_nat (length l))%Z.
Proof. induction l; simpl length; [simpl; lia|]. simpl zsum. rewrite IHl. lia. Qed.
Lemma zsum_scale {A} (c : Z) (f : A -> Z) l : zsum (fun x => (c * f x)%Z) l = (c * zsum f l)%Z.
Proof. induction l; simpl; lia. Qed.
Lemma zsum_concat {A} (f : A -> Z) ll : zsum f (concat ll) = zsum (zsum f) ll.
Proof. induction ll; simpl; [reflexivity|]. now rewrite zsum_app, IHll. Qed.
Lemma zsum_swap {A B} (f : A -> B -> Z) la lb :
  zsum (fun a => zsum (fun b => f a b) lb) la = zsum (fun b => zsum (fun a => f a b) la) lb.
Proof.
  induction la as [|a la IH]; simpl.
  - induction lb; simpl; lia.
  - rewrite IH. clear IH. induction lb; simpl; lia.
Qed.

Lemma leb_fold_min {A} (f : A -> Z) (j b : Z) l :
  (j <=? fold_right (fun q acc => Z.min (f q) acc) b l)%Z = forallb (fun q => (j <=? f q)%Z) l && (j <=? b)%Z.
Proof.
  induction l as [|q l IH]; simpl; [reflexivity|]. rewrite <- andb_assoc, <- IH.
  apply eq_true_iff_eq. rewrite andb_true_iff, !Z.leb_le. apply Z.min_glb_iff.
Qed.
Lemma fold_min_bounds {A} (f : A -> Z) (lo hi b : Z) l : (lo <= b <= hi)%Z -> (forall q, In q l -> (lo <= f q)%Z) ->
  (lo <= fold_right (fun q acc => Z.min (f q) acc) b l <= hi)%Z.
Proof.
  induction l as [|q l IH]; simpl; intros Hb H; [exact Hb|].
  specialize (IH Hb (fun x Hx => H x (or_intror Hx))). pose proof (H q (or_introl eq_refl)). lia.
Qed.

Definition sgn (k : nat) : Z := if Nat.even k then 1%Z else (-1)%Z.
Definition ord (r : rep) (t : name) : nat := match assoc t (r_simp r) with Some (k, _) => k | None => 0 end.

Lemma ord_of r t k j : assoc t (r_simp r) = Some (k, j) -> ord r t = k.
Proof. intros H. unfold ord. now rewrite H. Qed.

Lemma ord_card r t : vinv r -> containsSimplex r t = true -> length (basisOf r t) = S (ord r t).
Proof.
  intros Hv Ct. apply (containsSimplex_assoc r) in Ct. destruct Ct as (k & j & At).
  now rewrite (v_card r Hv t k j At), (ord_of r t k j At).
Qed.

Lemma alt_sum_seq (f : nat -> nat) : forall n k,
  alt_sum (sgn k) (map f (seq k n)) = zsum (fun i => (sgn i * Z.of_nat (f i))%Z) (seq k n).
Proof.
  induction n as [|n IH]; intros k; simpl; [reflexivity|]. rewrite <- IH. do 2 f_equal.
  unfold sgn. rewrite Nat.even_succ, <- Nat.negb_even. now destruct (Nat.even k).
Qed.
Theorem euler_as_sum r : pinv r -> eulerCharacteristic r = zsum (fun t => sgn (ord r t)) (simplices r false).
Proof.
  intros P. unfold eulerCharacteristic, numberOfSimplicesOfOrder.
  rewrite (alt_sum_seq _ (r_nord r) 0), (simplices_concat r P), zsum_concat, zsum_map.
  apply zsum_ext_in. intros k _.
  rewrite (zsum_ext_in (fun t => sgn (ord r t)) (fun _ => sgn k)); [now rewrite zsum_const|].
  intros t Ht. apply (listed_assoc r t k P) in Ht. destruct Ht as (j & At). now rewrite (ord_of r t k j At).
Qed.

Section Int.
  Variables (hp : heap) (a : string) (d : Z).
  Definition m (r : rep) (p : name) : Z := metric0 hp r a d p.

  Lemma m_frame r r' t : aframe r r' -> containsSimplex r' t = true -> m r' t = m r t.
  Proof. intros F Ht. destruct (F t Ht) as [_ E]. unfold m, metric0, metric. now rewrite E. Qed.

  Lemma levelSet_spec r l r' x : vinv r -> levelSet hp r a d l = (r', x) ->
    x = Ok tt /\ vinv r' /\
    (forall t, containsSimplex r' t = true <->
               containsSimplex r t = true /\ forall p, In p (basisOf r t) -> (l < m r p)%Z) /\
    (forall t, containsSimplex r' t = true ->
               sameset (basisOf r' t) (basisOf r t) /\ ord r' t = ord r t /\ m r' t = m r t).
  Proof.
    intros Hv H. unfold levelSet in H.
    set (bs := filter _ (simplices r false)) in H.
    pose proof (vinv_sinv r Hv) as HS. pose proof (vinv_pinv r Hv) as P.
    assert (Hbs : forall p, In p bs <-> (exists i, assoc p (r_simp r) = Some (0, i)) /\ (l < m r p)%Z).
    { intros p. unfold bs. rewrite filter_In, (In_simplices_iff r p P). unfold containsSimplex, orderOf. split.
      - intros [_ Hf]. destruct (assoc p (r_simp r)) as [[[|k] i]|]; try discriminate. split; [eauto | now apply Z.ltb_lt].
      - intros [(i & ->) Hl]. split; [reflexivity | now apply Z.ltb_lt]. }
    assert (Pt : pts r bs) by (intros p Hp; now apply Hbs in Hp).
    destruct (restrict_vertex_sets r bs r' x Hv H) as [Hok Hres]. pose proof (Hok Pt) as ->.
    destruct (Hres eq_refl) as (Hv' & Hm & Hb). split; [reflexivity|]. split; [exact Hv'|].
    pose proof (restrict_aframe r bs r' (Ok tt) HS H) as AF. split.
    - intros t. rewrite Hm. split; intros [Ct Hi]; split; auto.
      + intros p Hp. now apply Hbs, Hi.
      + intros p Hp. apply Hbs. split; [|now apply Hi]. apply (containsSimplex_assoc r) in Ct. destruct Ct as (k & j & At).
        exact (a_basis_point r Hv t k j p At Hp).
    - intros t Ct'. pose proof (Hb t Ct') as Sb. split; [exact Sb|]. split; [|now apply m_frame].
      pose proof (NoDup_same_length _ _ (basis_nodup r' t (vinv_pinv r' Hv')) (basis_nodup r t P) Sb) as E.
      rewrite (ord_card r' t Hv' Ct'), (ord_card r t Hv (proj1 (proj1 (Hm t) Ct'))) in E. now injection E.
  Qed.

  (* the loop of integrate *)
  Definition istep (acc : rep * res Z) (l : nat) : rep * res Z :=
    match acc with
    | (r, Raise e) => acc
    | (r, Ok acc_a) =>
        match levelSet hp r a d (Z.of_nat l) with
        | (r', Raise e) => (r', Raise e)
        | (r', Ok _) => (r', Ok (acc_a + eulerCharacteristic r')%Z)
        end
    end.

  Variable c : rep.
  Hypothesis Hvc : vinv c.
  Hypothesis Hnonneg : forall p i, assoc p (r_simp c) = Some (0, i) -> (0 <= m c p)%Z.

  Definition allabove (l : Z) (t : name) : bool := forallb (fun p => (l <=? m c p)%Z) (basisOf c t).

  Record LI (l : Z) (r : rep) : Prop := {
    li_v : vinv r;
    li_m : forall t, containsSimplex r t = true <-> containsSimplex c t = true /\ allabove l t = true;
    li_s : forall t, containsSimplex r t = true -> sameset (basisOf r t) (basisOf c t) /\ ord r t = ord c t /\ m r t = m c t }.

  Lemma LI_0 : LI 0 c.
  Proof.
    constructor; auto.
    - intros t. split; [|tauto]. intros Ct. split; auto. apply forallb_forall. intros p Hp. apply Z.leb_le.
      apply (containsSimplex_assoc c) in Ct. destruct Ct as (k & j & At).
      destruct (a_basis_point c Hvc t k j p At Hp) as (i & Ap). eauto.
    - intros t Ct. split; [intros z; reflexivity|auto].
  Qed.

  Lemma chi_LI l r : LI l r ->
    eulerCharacteristic r = zsum (fun t => if allabove l t then sgn (ord c t) else 0%Z) (simplices c false).
  Proof.
    intros [Hv Hm Hs]. pose proof (vinv_pinv r Hv) as P. pose proof (vinv_pinv c Hvc) as Pc.
    rewrite (euler_as_sum r P), <- (zsum_filter (fun t => sgn (ord c t)) (allabove l)).
    rewrite (zsum_ext_in (fun t => sgn (ord r t)) (fun t => sgn (ord c t))).
    - apply zsum_perm. apply NoDup_Permutation.
      + apply simplices_nodup; exact P.
      + apply NoDup_filter. apply simplices_nodup; exact Pc.
      + intros t. rewrite filter_In, (In_simplices_iff r t P), (In_simplices_iff c t Pc). apply Hm.
    - intros t Ht. apply (In_simplices_iff r t P) in Ht. destruct (Hs t Ht) as (_ & -> & _). reflexivity.
  Qed.

  Lemma allabove_succ l t :
    allabove (Z.of_nat (S l)) t = true <-> forall p, In p (basisOf c t) -> (Z.of_nat l < m c p)%Z.
  Proof.
    unfold allabove. rewrite forallb_forall.
    split; intros H p Hp; specialize (H p Hp); [apply Z.leb_le in H | apply Z.leb_le]; lia.
  Qed.

  Lemma step_LI l r r' x : LI (Z.of_nat l) r -> levelSet hp r a d (Z.of_nat l) = (r', x) ->
    x = Ok tt /\ LI (Z.of_nat (S l)) r'.
  Proof.
    intros [Hv Hm Hs] H. destruct (levelSet_spec r (Z.of_nat l) r' x Hv H) as (-> & Hv' & Hm' & Hs'). split; [reflexivity|].
    (* on a simplex of r the test of levelSet reads the same in r and in c *)
    assert (Hb : forall t, containsSimplex r t = true ->
              (forall p, In p (basisOf r t) -> (Z.of_nat l < m r p)%Z) <-> allabove (Z.of_nat (S l)) t = true).
    { intros t Ct. rewrite allabove_succ. destruct (Hs t Ct) as (Sb & _ & _).
      assert (Em : forall p, In p (basisOf r t) -> m r p = m c p).
      { intros p Hp. destruct (basis_point r Hv t p Ct Hp) as [Cp _]. now destruct (Hs p Cp) as (_ & _ & Em). }
      split; intros Hab p Hp.
      - apply Sb in Hp. rewrite <- (Em p Hp). now apply Hab.
      - rewrite (Em p Hp). now apply Hab, Sb. }
    constructor; [exact Hv'| |].
    - intros t. rewrite Hm'. split.
      + intros [Ct Hab]. split; [now apply Hm in Ct | now apply Hb].
      + intros [Cc Hab]. assert (Ct : containsSimplex r t = true).
        { apply Hm. split; [exact Cc|]. apply forallb_forall. intros p Hp. apply Z.leb_le.
          pose proof (proj1 (allabove_succ l t) Hab p Hp). lia. }
        split; [exact Ct | now apply Hb].
    - intros t Ct'. destruct (Hs' t Ct') as (Sb' & Eo' & Em'). destruct (Hs t (proj1 (proj1 (Hm' t) Ct'))) as (Sb & Eo & Em).
      split; [intros z; rewrite (Sb' z); apply Sb|]. split; congruence.
  Qed.

  Lemma loop_LI : forall n b r acc r' x, LI (Z.of_nat b) r ->
    fold_left istep (seq b n) (r, Ok acc) = (r', x) ->
    x = Ok (acc + zsum (fun l => zsum (fun t => if allabove (Z.of_nat (S l)) t then sgn (ord c t) else 0%Z) (simplices c false)) (seq b n))%Z.
  Proof.
    induction n as [|n IH]; intros b r acc r' x HL H; simpl in H.
    - injection H as _ <-. simpl. f_equal. lia.
    - destruct (levelSet hp r a d (Z.of_nat b)) as [r1 x1] eqn:E. destruct (step_LI b r r1 x1 HL E) as [-> HL1].
      rewrite (IH (S b) r1 _ r' x HL1 H). f_equal. rewrite (chi_LI _ r1 HL1). simpl zsum. lia.
  Qed.
End Int.

Section Final.
  Variables (hp : heap) (a : string) (d : Z) (c : rep).
  Hypothesis Hvc : vinv c.
  Hypothesis Hnum : forall s, containsSimplex c s = true -> exists z, metric hp c a d s = Ok z.
  Hypothesis Hnonneg : forall p i, assoc p (r_simp c) = Some (0, i) -> (0 <= m hp a d c p)%Z.
  Local Notation mm := (m hp a d c).

  Definition minm (t : name) : Z :=
    match basisOf c t with [] => 0%Z | p :: l => fold_right (fun q acc => Z.min (mm q) acc) (mm p) l end.

  Lemma forallb_min (j : Z) p l :
    forallb (fun q => (j <=? mm q)%Z) (p :: l) = (j <=? fold_right (fun q acc => Z.min (mm q) acc) (mm p) l)%Z.
  Proof. rewrite leb_fold_min. apply andb_comm. Qed.

  Lemma count_levels (M : Z) : forall N, (0 <= M)%Z ->
    zsum (fun l => if (Z.of_nat (S l) <=? M)%Z then 1%Z else 0%Z) (seq 0 N) = Z.min (Z.of_nat N) M.
  Proof.
    intros N HM. induction N as [|N IH]; [simpl; lia|].
    rewrite seq_S, zsum_app, IH. cbn [zsum plus]. destruct (Z.of_nat (S N) <=? M)%Z eqn:E.
    - apply Z.leb_le in E. lia.
    - apply Z.leb_gt in E. lia.
  Qed.

  Let maxH := fold_right Z.max 0%Z (map (metric0 hp c a d) (simplices c false)).
  Lemma maxH_ge s : In s (simplices c false) -> (mm s <= maxH)%Z.
  Proof.
    unfold maxH, m. generalize (simplices c false). induction l as [|x l IH]; intros H; [destruct H|].
    simpl. destruct H as [->|H]; [lia|]. specialize (IH H). lia.
  Qed.
  Lemma maxH_nonneg : (0 <= maxH)%Z.
  Proof. unfold maxH. generalize (simplices c false). induction l; simpl; lia. Qed.

  Lemma integrate_eq_loop : integrate hp c a d =
    Ok (zsum (fun l => zsum (fun t => if allabove hp a d c (Z.of_nat (S l)) t then sgn (ord c t) else 0%Z) (simplices c false))
             (seq 0 (Z.to_nat maxH))).
  Proof.
    unfold integrate.
    assert (E0 : existsb (fun s => match metric hp c a d s with Ok _ => false | Raise _ => true end) (simplices c false) = false).
    { destruct (existsb _ _) eqn:E; [|reflexivity]. apply existsb_exists in E. destruct E as (s & Hs & E).
      apply (In_simplices_iff c s (vinv_pinv c Hvc)) in Hs. destruct (Hnum s Hs) as (z & Ez). rewrite Ez in E. discriminate. }
    rewrite E0. fold maxH.
    change (fold_left _ (seq 0 (Z.to_nat maxH)) (c, Ok 0%Z)) with (fold_left (istep hp a d) (seq 0 (Z.to_nat maxH)) (c, Ok 0%Z)).
    destruct (fold_left (istep hp a d) (seq 0 (Z.to_nat maxH)) (c, Ok 0%Z)) as [r' x] eqn:EF.
    now rewrite (loop_LI hp a d c Hvc (Z.to_nat maxH) 0 c 0%Z r' x (LI_0 hp a d c Hvc Hnonneg) EF), Z.add_0_l.
  Qed.

  (* C19: the integral is the sum over the simplices of (-1)^order times the smallest metric among the
     simplex's points -- a simplex is counted at the levels 1, 2, .. up to that metric *)
  Theorem integrate_is_simplexwise_sum :
    integrate hp c a d = Ok (zsum (fun t => (sgn (ord c t) * minm t)%Z) (simplices c false)).
  Proof.
    pose proof (vinv_pinv c Hvc) as P.
    rewrite integrate_eq_loop, zsum_swap. f_equal. apply zsum_ext_in. intros t Ht.
    apply (In_simplices_iff c t P) in Ht. pose proof (ord_card c t Hvc Ht) as Lc.
    apply (containsSimplex_assoc c) in Ht. destruct Ht as (k & j & At).
    unfold allabove, minm. destruct (basisOf c t) as [|p l] eqn:Eb; [discriminate|].
    set (M := fold_right (fun q acc => Z.min (mm q) acc) (mm p) l).
    assert (G : forall q, In q (p :: l) -> (0 <= mm q <= maxH)%Z).
    { intros q Hq. rewrite <- Eb in Hq. destruct (a_basis_point c Hvc t k j q At Hq) as (i & Aq). split; [eapply Hnonneg; eauto|].
      apply maxH_ge. apply (In_simplices_iff c q P). apply (containsSimplex_assoc c). eauto. }
    assert (HM : (0 <= M <= maxH)%Z).
    { apply fold_min_bounds; [apply G; now left | intros q Hq; apply G; now right]. }
    rewrite (zsum_ext_in _ (fun l0 => (sgn (ord c t) * (if (Z.of_nat (S l0) <=? M)%Z then 1 else 0))%Z)).
    2: { intros l0 _. rewrite (forallb_min (Z.of_nat (S l0)) p l). fold M. destruct (_ <=? M)%Z; lia. }
    rewrite zsum_scale, (count_levels M (Z.to_nat maxH)) by lia. f_equal. lia.
  Qed.

  Lemma level_LI l r' x : levelSet hp c a d (Z.of_nat l) = (r', x) -> x = Ok tt /\ LI hp a d c (Z.of_nat (S l)) r'.
  Proof.
    intros H. destruct (levelSet_spec hp a d c (Z.of_nat l) r' x Hvc H) as (-> & Hv' & Hm' & Hs'). split; [reflexivity|].
    constructor; [exact Hv'| |exact Hs']. intros t. now rewrite Hm', allabove_succ.
  Qed.

  (* C19: equivalently the sum over the levels l = 0, 1, .. of the Euler characteristic of c restricted
     (from c itself, not cumulatively as the code does) to the points whose metric exceeds l *)
  Theorem integrate_is_levelwise_sum :
    integrate hp c a d =
    Ok (zsum (fun l => eulerCharacteristic (fst (levelSet hp c a d (Z.of_nat l)))) (seq 0 (Z.to_nat maxH))).
  Proof.
    rewrite integrate_eq_loop. f_equal. apply zsum_ext_in. intros l _.
    destruct (levelSet hp c a d (Z.of_nat l)) as [r1 x1] eqn:E1. destruct (level_LI l r1 x1 E1) as [_ HL].
    symmetry. exact (chi_LI hp a d c Hvc (Z.of_nat (S l)) r1 HL).
  Qed.

  Theorem integrate_isolated_points : r_nord c <= 1 ->
    integrate hp c a d = Ok (zsum mm (simplices c false)).
  Proof.
    intros H1. rewrite integrate_is_simplexwise_sum. f_equal. apply zsum_ext_in. intros t Ht.
    apply (In_simplices_iff c t (vinv_pinv c Hvc)) in Ht. apply (containsSimplex_assoc c) in Ht. destruct Ht as (k & j & At).
    assert (k = 0) by (apply (pi_pos c (vinv_pinv c Hvc)) in At; lia). subst k.
    destruct (b_b c (v_b c Hvc) t 0 j At) as [Eb _]. unfold minm. rewrite (Eb eq_refl), (ord_of c t 0 j At). cbn [fold_right sgn Nat.even]. lia.
  Qed.
End Final.

(* the hypotheses are satisfiable: a filled triangle with heights 3, 1, 2 on its points *)
Section Example.

  Let c := fold_left vstep [VPoint (Some (NInt 1)) (Some (9, 0)); VPoint (Some (NInt 2)) (Some (9, 1));
                            VPoint (Some (NInt 3)) (Some (9, 2)); VAddB [NInt 1; NInt 2; NInt 3] None None] (empty_rep 9).
  Let hp : heap := [((9, 0), [("h"%string, AInt 3)]); ((9, 1), [("h"%string, AInt 1)]); ((9, 2), [("h"%string, AInt 2)])].
  Example integral_example :
    vinv c /\
    (forall s, containsSimplex c s = true -> exists z, metric hp c "h" 0 s = Ok z) /\
    (forall p i, assoc p (r_simp c) = Some (0, i) -> (0 <= m hp "h" 0 c p)%Z) /\
    integrate hp c "h" 0 = Ok 3%Z /\
    zsum (fun t => (sgn (ord c t) * minm hp "h" 0 c t)%Z) (simplices c false) = 3%Z.
  Proof.
    assert (Hv : vinv c) by apply vertex_set_reading_at_every_point.
    pose proof (vinv_pinv c Hv) as P.
    split; [exact Hv|]. split; [|split; [|split; vm_compute; reflexivity]].
    - intros s Hs. apply (In_simplices_iff c s P) in Hs. vm_compute in Hs.
      repeat (destruct Hs as [<-|Hs]; [vm_compute; eauto|]). destruct Hs.
    - intros p i Ap. assert (Hs : In p (simplices c false)) by (apply (In_simplices_iff c p P), (containsSimplex_assoc c); eauto).
      vm_compute in Hs. repeat (destruct Hs as [<-|Hs]; [vm_compute; discriminate|]). destruct Hs.
  Qed.
End Example.
