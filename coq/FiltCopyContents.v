(* FiltCopyContents.v -- C09 / C13: what Filtration.copy() holds when it succeeds: exactly the simplices of the source,
   each with its faces and with the birth index it has in the source.  Plain Coq. *)
From Coq Require Import String ZArith Bool Arith List Lia.
From SV Require Import Names NamesFacts FoldRes Rep Complex Atomic AddEffect Filtration FiltProofs FiltClosed FiltBook CopyFaithful StarOrder Duality SortedViews.
Import ListNotations.
Open Scope nat_scope.

Section CopyContents.
  Variables (f : filt) (uid : nat).
  Hypothesis Mf : minv f.
  Hypothesis Bf : binv f.

  Record cc (D : list name) (c : filt) : Prop := {
    cc_both : both c;
    cc_mem : forall s, containsSimplex (f_rep c) s = memn s D;
    cc_same : forall s, In s D -> f_addedAtIndex c s = f_addedAtIndex f s /\
              forall t, In t (faces (f_rep c) s) <-> In t (faces (f_rep f) s) }.

  Lemma cc_rep D c r : same_obs (f_rep c) r -> cc D c -> cc D (with_rep c r).
  Proof.
    intros Hs [[M B] Mem Same]. destruct (same_obs_queries (f_rep c) r Hs) as (_ & _ & Qf & _ & _ & Qc & _).
    constructor.
    - split; [apply minv_same_obs; assumption|now apply binv_rep].
    - intros s. simpl. rewrite Qc. apply Mem.
    - intros s Hs'. destruct (Same s Hs') as [A F]. split.
      + unfold f_addedAtIndex, f_containsSome in *. simpl. rewrite Qc. exact A.
      + intros t. simpl. rewrite Qf. apply F.
  Qed.

  Lemma cc_setIndex D c i : cc D c -> cc D (f_setIndex c i).
  Proof.
    intros [Bc Mem Same]. constructor.
    - now apply both_setIndex.
    - intros s. rewrite f_rep_setIndex. apply Mem.
    - intros s Hs. rewrite moving_keeps_births, f_rep_setIndex. now apply Same.
  Qed.

  Lemma cc_add D c s h' c5 n k : cc D c -> containsSimplex (f_rep f) s = true ->
    f_addedAtIndex f s = Ok (f_index c) -> f_orderOf f s = Ok k ->
    f_addSimplex c (if k =? 0 then [] else faces (f_rep f) s) (Some s) (Some h') = (c5, Ok n) ->
    cc (D ++ [s]) c5 /\ f_index c5 = f_index c.
  Proof.
    intros [[M B] Mem Same] Cs Hb Hk H.
    destruct (f_addSimplex_ok _ _ _ _ _ _ H) as (Hr & Hi & _). destruct (addSimplex_given _ _ _ _ _ _ Hr) as [-> _].
    destruct (addSimplex_effect _ _ _ _ _ _ (m_s c M) Hr) as (Hnew & _ & _ & Hf & Hold & Hall).
    rewrite Mem in Hnew. apply memn_false in Hnew.
    destruct (add_is_born_at_the_current_index c _ (Some s) (Some h') c5 s M B H) as (Hbs & _ & Hbo).
    split; [|exact Hi]. constructor.
    - eapply both_add; [split; eassumption|exact H].
    - intros t. rewrite Hall, Mem. unfold memn. rewrite existsb_app. simpl. now rewrite orb_false_r.
    - intros t Ht. apply in_app_or in Ht. destruct Ht as [Ht|[<-|[]]].
      + assert (Hts : t <> s) by (intros ->; contradiction).
        destruct (Same t Ht) as [A F]. split; [rewrite (Hbo t Hts); exact A|].
        assert (Ct : containsSimplex (f_rep c) t = true) by (rewrite Mem; now apply memn_In).
        destruct (Hold t Ct) as (_ & _ & F2 & _). intros u. rewrite F2. apply F.
      + split; [rewrite Hbs; symmetry; exact Hb|]. intros u. rewrite (Hf u).
        unfold f_orderOf, orderOf in Hk.
        destruct (assoc s (r_simp (f_rep f))) as [[k0 j]|] eqn:As; [|discriminate]. injection Hk as ->.
        destruct k as [|k]; simpl; [|reflexivity]. unfold faces. rewrite As. simpl. tauto.
  Qed.

  Lemma inner_raise ss hp c e : fold_left (copy_inner f) ss (hp, c, Raise e) = (hp, c, Raise e).
  Proof. apply fold_stops_raise, copy_inner_raise. Qed.

  Lemma inner_fold : forall ss D hp c hp' c', cc D c ->
    (forall s, In s ss -> containsSimplex (f_rep f) s = true /\ f_addedAtIndex f s = Ok (f_index c)) ->
    fold_left (copy_inner f) ss (hp, c, Ok tt) = (hp', c', Ok tt) -> cc (D ++ ss) c' /\ f_index c' = f_index c.
  Proof.
    induction ss as [|s ss IH]; intros D hp c hp' c' Hc Hs H; cbn [fold_left] in H.
    - injection H as _ <-. rewrite app_nil_r. auto.
    - destruct (Hs s (or_introl eq_refl)) as [Cs Hb].
      cbn [copy_inner] in H. destruct (alloc (f_rep c)) as [r4 h'] eqn:Ea. cbv zeta in H.
      assert (C4 : cc D (with_rep c r4)).
      { apply cc_rep; [|exact Hc]. pose proof (same_obs_alloc (f_rep c)) as X. now rewrite Ea in X. }
      destruct (f_orderOf f s) as [k|e] eqn:Ek; [|rewrite inner_raise in H; discriminate].
      destruct (f_addSimplex (with_rep c r4) (if k =? 0 then [] else faces (f_rep f) s) (Some s) (Some h')) as [c5 [n|e]] eqn:EA;
        [|rewrite inner_raise in H; discriminate].
      destruct (cc_add D (with_rep c r4) s h' c5 n k C4 Cs Hb Ek EA) as [C5 I5]. simpl in I5.
      replace (D ++ s :: ss) with ((D ++ [s]) ++ ss) by (now rewrite <- app_assoc).
      assert (Hs' : forall t, In t ss -> containsSimplex (f_rep f) t = true /\ f_addedAtIndex f t = Ok (f_index c5))
        by (intros t Ht; rewrite I5; apply Hs; now right).
      destruct (IH _ _ _ _ _ C5 Hs' H) as [Cf If]. split; [exact Cf|congruence].
  Qed.

  Lemma NoDup_snd_sort_asc l : NoDup (map snd l) -> NoDup (map snd (sort_asc l)).
  Proof.
    unfold sort_asc. induction l as [|a l IH]; simpl; intros H; [constructor|].
    inversion H as [|x xs Hx Hxs]; subst.
    apply (proj2 (NoDup_snd_insert _ _ _)). simpl. constructor; [|now apply IH].
    intros Hin. apply Hx. apply in_map_iff in Hin. destruct Hin as (q & Eq & Hq).
    change (In q (sort_asc l)) in Hq. apply (proj1 (In_sort_asc l q)) in Hq.
    apply in_map_iff. eauto.
  Qed.

  (* FiltProofs.copy_batch f again: the unfolding of f_copy has to name this list before minv and binv are
     defined, and what is known of it needs both *)
  Definition batch (orders : list (idx * list name)) (ind : idx) : list name :=
    let own := match f_simplicesAddedAtIndex f ind false with Ok l => map snd l | Raise _ => [] end in
    match zassoc ind orders with
    | Some l => if seteq l own && nodupb l then l else own
    | None => own
    end.

  Lemma batch_spec orders ind : In ind (f_indices f) ->
    NoDup (batch orders ind) /\ forall s, In s (batch orders ind) <-> f_addedAtIndex f s = Ok ind.
  Proof.
    intros Hind. apply in_indices in Hind.
    destruct (zassoc ind (f_includes f)) as [ss|] eqn:Zi; [|congruence].
    assert (Own : exists l, f_simplicesAddedAtIndex f ind false = Ok l).
    { unfold f_simplicesAddedAtIndex. rewrite Zi. eauto. }
    destruct Own as (l & El).
    pose proof (addedAt_lists_the_births f ind false l Mf Bf El) as Hl.
    assert (Nl : NoDup (map snd l)).
    { unfold f_simplicesAddedAtIndex in El. rewrite Zi in El. injection El as <-.
      apply NoDup_snd_sort_asc. rewrite map_map. simpl. rewrite map_id. exact (b_nd f Bf ind ss Zi). }
    unfold batch. rewrite El. destruct (zassoc ind orders) as [l0|]; [|auto].
    destruct (seteq l0 (map snd l) && nodupb l0) eqn:E; [|auto].
    apply andb_prop in E. destruct E as [E1 E2]. apply AwbSpec.seteq_sameset in E1. apply nodupb_NoDup in E2.
    split; [exact E2|]. intros s. rewrite (E1 s). apply Hl.
  Qed.

  Lemma outer_raise orders L hp c e : fold_left (copy_outer f orders) L (hp, c, Raise e) = (hp, c, Raise e).
  Proof. apply fold_stops_raise, copy_outer_raise. Qed.

  Lemma born_contains s i : f_addedAtIndex f s = Ok i -> containsSimplex (f_rep f) s = true.
  Proof. intros H. now apply addedAt_iff in H. Qed.

  Lemma outer_fold orders : forall L done D hp c hp' c', (forall i, In i L -> In i (f_indices f)) ->
    cc D c -> (forall s, In s D <-> exists j, In j done /\ f_addedAtIndex f s = Ok j) ->
    fold_left (copy_outer f orders) L (hp, c, Ok tt) = (hp', c', Ok tt) ->
    exists D', cc D' c' /\ forall s, In s D' <-> exists j, In j (done ++ L) /\ f_addedAtIndex f s = Ok j.
  Proof.
    induction L as [|ind L IH]; intros done D hp c hp' c' HL Hc HD H; cbn [fold_left] in H.
    - injection H as _ <-. exists D. rewrite app_nil_r. auto.
    - cbn [copy_outer] in H. change (copy_batch f orders ind) with (batch orders ind) in H.
      destruct (batch_spec orders ind (HL ind (or_introl eq_refl))) as [_ SB].
      destruct (fold_left (copy_inner f) (batch orders ind) (hp, f_setIndex c ind, Ok tt)) as [[hp1 c1] [u|e]] eqn:EI;
        [|rewrite outer_raise in H; discriminate].
      destruct u.
      destruct (inner_fold (batch orders ind) D hp (f_setIndex c ind) hp1 c1 (cc_setIndex D c ind Hc)) as [C1 _]; [|exact EI|].
      + intros s Hs. apply SB in Hs. split; [eapply born_contains; eauto|]. now rewrite f_index_setIndex.
      + replace (done ++ ind :: L) with ((done ++ [ind]) ++ L) by (now rewrite <- app_assoc).
        apply (IH (done ++ [ind]) (D ++ batch orders ind) hp1 c1 hp' c'); auto.
        * intros i Hi. apply HL. now right.
        * intros s. rewrite in_app_iff, (HD s), (SB s). split.
          -- intros [(j & Hj & Bj)|Bi]; [exists j|exists ind]; rewrite in_app_iff; simpl; auto.
          -- intros (j & Hj & Bj). apply in_app_or in Hj. destruct Hj as [Hj|[<-|[]]]; eauto.
  Qed.

  Theorem f_copy_contents hp orders hp' c : f_copy hp f uid orders = (hp', c, Ok tt) ->
    (forall s, containsSimplex (f_rep c) s = containsSimplex (f_rep f) s) /\
    (forall s, containsSimplex (f_rep f) s = true ->
       f_addedAtIndex c s = f_addedAtIndex f s /\ forall t, In t (faces (f_rep c) s) <-> In t (faces (f_rep f) s)).
  Proof.
    rewrite f_copy_unfold. destruct (f_indices f) as [|i0 inds] eqn:Ei; [discriminate|].
    destruct (fold_left (copy_outer f orders) (i0 :: inds) (hp, new_filt uid i0, Ok tt)) as [[hp1 c1] x1] eqn:EF.
    intros H. injection H as <- <- Hx.
    assert (C0 : cc [] (new_filt uid i0)).
    { constructor; [apply both_new|intros s; reflexivity|intros s []]. }
    assert (HL : forall i, In i (i0 :: inds) -> In i (f_indices f)) by (intros i Hi; now rewrite Ei).
    assert (HD0 : forall s, In s (@nil name) <-> exists j, In j (@nil idx) /\ f_addedAtIndex f s = Ok j).
    { intros s. split; [intros []|intros (j & [] & _)]. }
    destruct x1 as [[]|e]; [|discriminate].
    destruct (outer_fold orders (i0 :: inds) [] [] hp (new_filt uid i0) hp1 c1 HL C0 HD0 EF) as (D & CD & HD).
    { apply (cc_setIndex D c1 i0) in CD. destruct CD as [_ Mem Same]. simpl in HD.
      assert (Cov : forall s, memn s D = containsSimplex (f_rep f) s).
      { intros s. apply eq_true_iff_eq. rewrite memn_In, (HD s). split.
        - intros (j & _ & Bj). eapply born_contains; eauto.
        - intros Cs. destruct (assoc s (f_appears f)) as [i|] eqn:A; [|apply (m_dom f Mf) in A; congruence].
          apply (minv_born f s i Mf) in A. exists i. split; [|exact A].
          change (In i (i0 :: inds)). rewrite <- Ei. now apply (every_birth_is_an_index f s i Bf). }
      split; [intros s; rewrite Mem; apply Cov|].
      intros s Cs. apply Same. apply memn_In. now rewrite Cov. }
  Qed.
End CopyContents.
