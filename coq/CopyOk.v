(* CopyOk.v -- copy() of a complex that meets the vertex-set reading never fails (C09, C11, C12), and
   neither does the adding step of a.compose(c) on compatible operands (C16).  Both add the simplices of a
   source c in the order in which c lists them, to a complex that holds a complex a (empty for copy) and the
   simplices added so far.  The listing goes order by order, so when a simplex's turn comes its faces are
   there with the right order, its name is not, and no simplex there has the same faces: one of a's would
   have the same points (so the same name), one of c's is the same simplex.  Plain Coq. *)
From Coq Require Import Bool Arith List Lia.
From SV Require Import Names NamesFacts ListFacts Rep Complex Atomic RepInv Shapes Incidence Closed BasisInv VInv AwbSpec CopyFaithful MinCycle FlagComplete ComposeProofs.
Import ListNotations.
Open Scope nat_scope.

Lemma addSimplex_succeeds_named r fs n h : NoDup fs -> length fs <> 1 -> length fs - 1 <= r_nord r ->
  containsSimplex r n = false ->
  (forall f, In f fs -> exists j, assoc f (r_simp r) = Some (length fs - 1 - 1, j)) ->
  (0 < length fs - 1 -> length fs - 1 < r_nord r -> simplexWithFaces r fs = Ok None) ->
  exists r', addSimplex r fs (Some n) (Some h) = (r', Ok n).
Proof.
  intros Hnd Hl Hk Hn Hord Hswf. unfold addSimplex.
  replace ((length fs - 1 =? 0) && negb (length fs =? 0)) with false.
  2: { symmetry. destruct (length fs) as [|[|m]] eqn:E; simpl; auto. congruence. }
  rewrite Hn.
  replace (negb (nodupb fs)) with false by (symmetry; apply negb_false_iff; now apply nodupb_NoDup).
  assert (Hcf : check_faces r (length fs - 1) fs = Ok tt).
  { destruct fs as [|f0 [|f1 t]]; [reflexivity | simpl in Hl; congruence|].
    apply check_faces_ok; [exact Hord | simpl; lia]. }
  rewrite Hcf.
  destruct (r_nord r <=? length fs - 1) eqn:E1.
  - apply Nat.leb_le in E1. replace (r_nord r <? length fs - 1) with false by (symmetry; apply Nat.ltb_ge; lia).
    destruct (length fs - 1) as [|k']; eexists; reflexivity.
  - apply Nat.leb_gt in E1. destruct (0 <? length fs - 1) eqn:E0.
    + apply Nat.ltb_lt in E0. rewrite (Hswf E0 E1). destruct (length fs - 1) as [|k']; eexists; reflexivity.
    + destruct (length fs - 1) as [|k']; eexists; reflexivity.
Qed.

Lemma addFrom_loop_app hp r rn st l1 l2 ns :
  addFrom_loop hp r rn st (l1 ++ l2) ns =
  match addFrom_loop hp r rn st l1 ns with
  | (hp1, r1, st1, Ok ns1) => addFrom_loop hp1 r1 rn st1 l2 ns1
  | x => x
  end.
Proof.
  revert hp r st ns. induction l1 as [|[s [fs h]] t IH]; intros hp r st ns; [reflexivity|].
  cbn [app addFrom_loop]. destruct (rl_apply rn st s) as [st1 t0].
  destruct (negb (name_eqb s t0) && containsSimplex r t0); [reflexivity|].
  destruct (rl_map rn st1 fs) as [st2 fs']. destruct (alloc r) as [r1 h'].
  destruct (addSimplex r1 fs' (Some t0) (Some h')) as [r2 [id|e]]; [apply IH | reflexivity].
Qed.

Section Source.
  Variable src : rep.
  Hypothesis Hv : vinv src.
  Let HS : sinv src := vinv_sinv src Hv.
  Let P : pinv src := s_p src HS.

  Lemma faces_length s o j : assoc s (r_simp src) = Some (o, j) -> length (faces src s) - 1 = o /\ length (faces src s) <> 1.
  Proof.
    intros A. destruct o as [|o].
    - unfold faces. rewrite A. simpl. auto.
    - rewrite (c_f src (vinv_cinv src Hv) s o j A). simpl. split; lia.
  Qed.

  Lemma same_faces_same_simplex s t o j j' : assoc s (r_simp src) = Some (S o, j) -> assoc t (r_simp src) = Some (S o, j') ->
    sameset (faces src t) (faces src s) -> t = s.
  Proof.
    intros As At Sf. apply (v_uniq src Hv).
    - exact (assoc_contains _ _ _ _ At).
    - exact (assoc_contains _ _ _ _ As).
    - apply (same_faces_same_points src src s t o j o j' (v_b src Hv) (v_b src Hv) As At Sf). intros u _ z. reflexivity.
  Qed.

  Lemma faces_before done s rest : simplices src false = done ++ s :: rest -> forall f, In f (faces src s) -> In f done.
  Proof.
    intros Hl f Hf. assert (Cs : containsSimplex src s = true) by (apply (In_simplices_iff src s P); rewrite Hl; apply in_elt).
    apply containsSimplex_assoc in Cs. destruct Cs as ([|k] & j & As); [unfold faces in Hf; rewrite As in Hf; destruct Hf|].
    destruct (face_is_simplex src HS s f k j As Hf) as (i & Af). rewrite (simplices_concat src P) in Hl.
    apply (concat_seq_before (simplicesOfOrder src) (r_nord src) done s rest f k (S k)); [|exact Hl|apply (listed_assoc src _ _ P); eauto..|lia].
    intros k1 k2 x H1 H2. apply (listed_assoc src x _ P) in H1, H2. destruct H1 as (j1 & A1), H2 as (j2 & A2). congruence.
  Qed.

  Lemma add_next hp d st ns s : sinv d -> containsSimplex src s = true -> containsSimplex d s = false ->
    (forall f, In f (faces src s) -> orderOf d f = orderOf src f) ->
    (forall q k, orderOf src s = Ok (S k) -> orderOf d q = Ok (S k) -> sameset (faces d q) (faces src s) -> False) ->
    exists hp1 d1, addFrom_loop hp d RNone st [vw src s] ns = (hp1, d1, st, Ok (ns ++ [s])).
  Proof.
    intros Sd Cs Hnew Hfa Huniq. apply containsSimplex_assoc in Cs. destruct Cs as (k & j & As).
    destruct (faces_length s k j As) as [Lf L1].
    assert (Hford : forall f, In f (faces src s) -> exists i, assoc f (r_simp d) = Some (length (faces src s) - 1 - 1, i)).
    { intros f Hf. apply orderOf_assoc. rewrite (Hfa f Hf), Lf. apply orderOf_assoc.
      destruct k as [|k]; [unfold faces in Hf; rewrite As in Hf; destruct Hf|].
      replace (S k - 1) with k by lia. exact (face_is_simplex src HS s f k j As Hf). }
    unfold vw. rewrite addFrom_loop_one.
    destruct (addSimplex_succeeds_named (fst (alloc d)) (faces src s) s (snd (alloc d))) as (d2 & E).
    - apply faces_nodup, P.
    - exact L1.
    - (* a face has order k - 1, so order k - 1 exists *)
      change (length (faces src s) - 1 <= r_nord d). destruct (faces src s) as [|f0 t0]; [simpl; lia|].
      destruct (Hford f0 (or_introl eq_refl)) as (i & Af). destruct (pinv_pos_lt d f0 _ i (s_p d Sd) Af) as (Hlt & _). lia.
    - exact Hnew.
    - exact Hford.
    - intros H0 _. rewrite (simplexWithFaces_respects d _ _ (same_obs_alloc d)), (swf_total d (faces src s)); [|lia|exact Hford].
      destruct (last _ None) as [q|] eqn:El; [|reflexivity].
      exfalso. apply last_Some_In, filter_In in El. destruct El as [Hq Sq]. apply seteq_sameset in Sq.
      apply (listed_assoc d q _ (s_p d Sd)), orderOf_assoc in Hq. rewrite Lf in Hq. destruct k as [|k]; [lia|].
      apply (Huniq q k); [apply orderOf_assoc; eauto | exact Hq | exact Sq].
    - rewrite E. eauto.
  Qed.
End Source.

Section Next.
  Variables a c : rep.
  Hypothesis Va : vinv a.
  Hypothesis Vc : vinv c.
  (* compatible: a shared name denotes the same points; shared points carry the same name *)
  Hypothesis K1 : forall s, containsSimplex c s = true -> containsSimplex a s = true -> sameset (basisOf a s) (basisOf c s).
  Hypothesis K2 : forall s t, containsSimplex c s = true -> containsSimplex a t = true ->
                  sameset (basisOf a t) (basisOf c s) -> t = s.
  Let Pa : pinv a := vinv_pinv a Va.
  Let Pc : pinv c := vinv_pinv c Vc.

  Lemma shared_order s : containsSimplex a s = true -> containsSimplex c s = true -> orderOf a s = orderOf c s.
  Proof.
    intros Ca Cc. pose proof (basis_nodup c s Pc) as Nd.
    destruct (order_of_basis a s _ Va Ca Nd (K1 s Cc Ca)) as (j & Aa).
    destruct (order_of_basis c s _ Vc Cc Nd (sameset_refl _)) as (j' & Ac).
    unfold orderOf. now rewrite Aa, Ac.
  Qed.

  Lemma result_order done d q : cstate a c done d -> containsSimplex d q = true -> containsSimplex c q = true ->
    orderOf d q = orderOf c q.
  Proof.
    intros [Bd Hmem Ha Hc] Cd Cc. destruct (containsSimplex a q) eqn:Ca.
    - rewrite <- (shared_order q Ca Cc). apply same_faces_order; [exact (vinv_cinv a Va) | exact (b_c d Bd) | exact Ca | exact Cd|].
      now apply Ha.
    - apply same_faces_order; [exact (vinv_cinv c Vc) | exact (b_c d Bd) | exact Cc | exact Cd|].
      apply Hc; [|exact Ca]. rewrite Hmem, Ca in Cd. now apply memn_In.
  Qed.

  Lemma next_addable hp d st ns done s rest : simplices c false = done ++ s :: rest -> cstate a c done d ->
    containsSimplex a s = false -> exists hp1 d1, addFrom_loop hp d RNone st [vw c s] ns = (hp1, d1, st, Ok (ns ++ [s])).
  Proof.
    intros Hl St Nas. pose proof St as [Bd Hmem Ha Hc].
    assert (Hin : forall q, In q (done ++ [s]) -> containsSimplex c q = true).
    { intros q Hq. apply (In_simplices_iff c q Pc). rewrite Hl. apply in_app_or in Hq. apply in_or_app. simpl in *. tauto. }
    assert (Hns : ~ In s done).
    { pose proof (simplices_nodup c Pc) as Nd. rewrite Hl in Nd. apply NoDup_remove_2 in Nd. intros H. apply Nd, in_or_app. now left. }
    apply (add_next c Vc); [exact (bcinv_sinv d Bd) | apply Hin, in_elt | | |].
    - rewrite Hmem, Nas. now apply memn_false.
    - intros f Hf. pose proof (faces_before c Vc done s rest Hl f Hf) as Hd.
      apply (result_order done d f St); [|apply Hin, in_or_app; now left].
      rewrite Hmem. apply orb_true_iff. right. now apply memn_In.
    - intros q k Os Oq Sq. apply orderOf_assoc in Os. destruct Os as (j & As).
      assert (Cq : containsSimplex d q = true) by (apply containsSimplex_assoc; apply orderOf_assoc in Oq; destruct Oq; eauto).
      destruct (containsSimplex a q) eqn:Caq.
      + (* a simplex of a with the faces of s: the same points, hence the same name *)
        assert (Sf : sameset (faces a q) (faces c s)) by (intros t; rewrite <- (Ha q Caq t); apply Sq).
        rewrite (same_faces_order a d q (vinv_cinv a Va) (b_c d Bd) Caq Cq (Ha q Caq)) in Oq.
        apply orderOf_assoc in Oq. destruct Oq as (jq & Aq).
        assert (q = s); [|congruence]. apply (K2 s q (Hin s (in_elt s done [])) Caq).
        apply (same_faces_same_points c a s q k j k jq (v_b c Vc) (v_b a Va) As Aq Sf).
        intros u Hu. destruct (face_is_simplex c (vinv_sinv c Vc) s u k j As Hu) as (iu & Au). apply Sf in Hu.
        destruct (face_is_simplex a (vinv_sinv a Va) q u k jq Aq Hu) as (iu' & Au').
        apply K1; [exact (assoc_contains _ _ _ _ Au) | exact (assoc_contains _ _ _ _ Au')].
      + (* a simplex of c added earlier *)
        assert (Hq : In q done) by (rewrite Hmem, Caq in Cq; now apply memn_In).
        assert (Cqc : containsSimplex c q = true) by (apply Hin, in_or_app; now left).
        rewrite (result_order done d q St Cq Cqc) in Oq. apply orderOf_assoc in Oq. destruct Oq as (jq & Aq).
        assert (q = s); [|congruence]. apply (same_faces_same_simplex c Vc s q k j jq As Aq).
        intros t. rewrite <- (Hc q Hq Caq t). apply Sq.
  Qed.
End Next.

(* C09: copy() of a complex that meets the vertex-set reading succeeds *)
Theorem copy_new_succeeds src (Hv : vinv src) hp uid : exists hp' c, copy_new hp (view_of src) uid = (hp', c, Ok tt).
Proof.
  pose proof (vinv_pinv src Hv) as P.
  (* the copy of an initial part of the listing holds that part of the source *)
  assert (St : forall done hp1 r1 ns1, addFrom_loop hp (empty_rep uid) RNone rl0 (map (vw src) done) [] = (hp1, r1, rl0, Ok ns1) ->
                 cstate (empty_rep uid) src done r1).
  { intros done hp1 r1 ns1 E. destruct (bulk_add_faithful _ _ _ _ _ _ _ _ _ (sinv_empty uid) E) as (_ & Hsrc & _ & Hmem).
    constructor.
    - eapply (ReachGen.addFrom_loop_I bcinv); eauto using bcinv_same_obs, addSimplex_bcinv, bcinv_empty.
    - intros s. rewrite Hmem, map_map, map_id. reflexivity.
    - discriminate.
    - intros s Hs _. apply (Hsrc s _ _ (in_map (vw src) done s Hs)). }
  unfold copy_new, addSimplicesFrom. change (view_of src) with (map (vw src) (simplices src false)).
  destruct (prefix_ind (fun dn => exists hp1 r1 ns1, addFrom_loop hp (empty_rep uid) RNone rl0 (map (vw src) dn) [] = (hp1, r1, rl0, Ok ns1))
              (simplices src false)) as (hp1 & r1 & ns1 & E); [simpl; eauto| |rewrite E; simpl; eauto].
  intros dn s rest Hl (hp1 & r1 & ns1 & E).
  destruct (next_addable (empty_rep uid) src (vinv_empty uid) Hv) with (hp := hp1) (d := r1) (st := rl0) (ns := ns1) (done := dn) (s := s) (rest := rest)
    as (hp2 & r2 & E2); [discriminate | discriminate | exact Hl | exact (St dn hp1 r1 ns1 E) | reflexivity|].
  rewrite map_app, addFrom_loop_app, E. cbn [map]. rewrite E2. eauto.
Qed.
