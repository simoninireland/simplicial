(* Restrict.v -- restrictBasisTo in vertex sets: exactly the simplices whose points all lie in bs stay. *)
From Coq Require Import String ZArith Bool Arith List Lia.
From SV Require Import Names NamesFacts ListFacts Rep Fresh Complex Atomic RepInv Shapes Incidence AddEffect
                       Closed ClosedReach AddBasis BasisInv Duality DeleteEffect CopyFaithful VInv AwbSpec.
From SV Require Import FoldRes VSets.
Import ListNotations.
Open Scope nat_scope.

Lemma retain_loop_spec r bs0 : forall f retain source R,
  incl bs0 retain -> incl source retain ->
  (forall x, In x retain -> ~ In x source -> incl (cofaces r x) retain) ->
  (forall x, In x retain -> In x bs0 \/ exists y, In x (cofaces r y)) ->
  retain_loop f r retain source = Ok R ->
  incl bs0 R /\ (forall x, In x R -> incl (cofaces r x) R) /\
  (forall x, In x R -> In x bs0 \/ exists y, In x (cofaces r y)).
Proof.
  induction f as [|f IH]; intros retain source R H0 Hs Hcl Hsound H; simpl in H; [discriminate|].
  set (target := dedupn (flat_map (cofaces r) source)) in H.
  assert (Ht : forall x, In x target <-> exists y, In y source /\ In x (cofaces r y)).
  { intros x. unfold target. rewrite In_dedupn, in_flat_map. reflexivity. }
  destruct (subsetn target retain) eqn:Sub.
  - injection H as <-. apply subsetn_incl in Sub. split; [exact H0|]. split; [|exact Hsound].
    intros x Hx c Hc. destruct (memn x source) eqn:M.
    + apply memn_In in M. apply Sub. apply Ht. eauto.
    + apply memn_false in M. now apply (Hcl x Hx M).
  - apply (IH (unionn retain target) target R); auto.
    + intros x Hx. apply In_unionn. left. auto.
    + intros x Hx. apply In_unionn. now right.
    + intros x Hx Hnt c Hc. apply In_unionn. apply In_unionn in Hx. destruct Hx as [Hx|Hx]; [|contradiction].
      destruct (memn x source) eqn:M.
      * apply memn_In in M. right. apply Ht. eauto.
      * apply memn_false in M. left. now apply (Hcl x Hx M).
    + intros x Hx. apply In_unionn in Hx. destruct Hx as [Hx|Hx]; [auto|]. apply Ht in Hx. destruct Hx as (y & _ & Hy). eauto.
Qed.

(* the loop ends within maxOrder+2 rounds: round i only looks at simplices of order >= i *)
Lemma retain_loop_fuel r : sinv r -> forall f i retain source,
  (forall x, In x source -> exists k j, i <= k /\ assoc x (r_simp r) = Some (k, j)) ->
  1 <= f -> r_nord r + 1 <= f + i -> exists R, retain_loop f r retain source = Ok R.
Proof.
  intros HS. pose proof (s_p r HS) as P.
  induction f as [|f IH]; intros i retain source Hsrc H1 Hf; [lia|].
  simpl. destruct (subsetn _ retain) eqn:Sub; [eauto|].
  assert (Hi : i < r_nord r).
  { destruct (Nat.lt_ge_cases i (r_nord r)) as [Hl|Hl]; [exact Hl|]. exfalso.
    destruct source as [|x t]; [simpl in Sub; discriminate|].
    destruct (Hsrc x (or_introl eq_refl)) as (k & j & Hk & Ax). destruct P as [K Pm St L]. apply Pm in Ax. lia. }
  apply (IH (S i)); [|lia|lia].
  intros x Hx. apply (proj1 (In_dedupn _ _)) in Hx. apply in_flat_map in Hx. destruct Hx as (y & Hy & Hx).
  destruct (Hsrc y Hy) as (k & j & Hk & Ay).
  destruct (coface_is_simplex r HS x y k j Ay Hx) as (jx & Ax). exists (S k), jx. split; [lia|exact Ax].
Qed.
Lemma isBasis_fatal_ok r bs b : c_isBasis r bs true = Ok b -> pts r bs.
Proof.
  unfold c_isBasis. induction bs as [|a t IH]; simpl; intros Eb q Hq; [destruct Hq|].
  unfold containsSimplex, orderOf in Eb. destruct (assoc a (r_simp r)) as [[[|k] i]|] eqn:Ab; try discriminate.
  destruct Hq as [<-|Hq]; [eauto|]. eapply IH; eauto.
Qed.
Lemma isBasis_fatal_pts r bs : pts r bs -> c_isBasis r bs true = Ok true.
Proof.
  unfold c_isBasis. induction bs as [|a t IH]; simpl; intros Hp; [reflexivity|].
  destruct (Hp a (or_introl eq_refl)) as (i & Aa). unfold containsSimplex, orderOf. rewrite Aa.
  apply IH. intros q Hq. apply Hp. now right.
Qed.

Lemma basis_point r : vinv r -> forall t p, containsSimplex r t = true -> In p (basisOf r t) ->
  containsSimplex r p = true /\ basisOf r p = [p].
Proof.
  intros Hv t p _ Hp. destruct (basis_in_points r t p (vinv_pinv r Hv) Hp) as (i & Ap).
  split; [exact (assoc_contains r p _ _ Ap) | exact (point_basis r p i (vinv_bcinv r Hv) Ap)].
Qed.

Section R.
  Variable r : rep.
  Hypothesis Hv : vinv r.
  Variable bs : list name.
  Variable R : list name.
  Hypothesis R0 : incl bs R.
  Hypothesis Rcl : forall x, In x R -> incl (cofaces r x) R.
  Hypothesis Rsound : forall x, In x R -> In x bs \/ exists y, In x (cofaces r y).

  Lemma cchain_R : forall n s t, In s R -> cchain r n s t -> In t R.
  Proof.
    induction n as [|n IH]; intros s t Hs H; simpl in H; [now subst|].
    destruct H as (u & Hu & H). apply (IH u t); auto. now apply (Rcl s).
  Qed.

  Lemma outside_R s : containsSimplex r s = true -> ~ In s R -> forall p, In p (basisOf r s) -> ~ In p bs.
  Proof.
    intros Hs Hn p Hp Hb. apply Hn. destruct (basis_point r Hv s p Hs Hp) as [Cp Bp].
    destruct (proj2 (star_is_supersets r Hv p s Cp)) as (n & Hch).
    - split; auto. rewrite Bp. intros z [<-|[]]. exact Hp.
    - eapply cchain_R; eauto.
  Qed.
  Lemma point_outside p i : assoc p (r_simp r) = Some (0, i) -> ~ In p bs -> ~ In p R.
  Proof.
    intros Ap Hn Hr. destruct (Rsound p Hr) as [H|(y & Hy)]; [contradiction|].
    assert (Cy : exists k j, assoc y (r_simp r) = Some (k, j)).
    { unfold cofaces in Hy. destruct (assoc y (r_simp r)) as [[k j]|]; [eauto|destruct Hy]. }
    destruct Cy as (k & j & Ay). destruct (coface_is_simplex r (vinv_sinv r Hv) p y k j Ay Hy) as (jp & Ap'). congruence.
  Qed.

  (* one step of restrictBasisTo's loop over the simplices of r: what is still there and lies outside the retention
     set R goes, with its star *)
  Definition rstep (r1 : rep) (_ : unit) (s : name) : rep * res unit :=
    if containsSimplex r1 s && negb (memn s R) then deleteSimplex r1 s else (r1, Ok tt).

  (* the loop's invariant after the steps for `done`: the reading holds, what is left is part of r with the points it
     had, nothing on points of bs has gone, and nothing of `done` outside R is left *)
  Record J (done : list name) (r1 : rep) : Prop := {
    j_v : vinv r1;
    j_sub : forall t, containsSimplex r1 t = true -> containsSimplex r t = true /\ sameset (basisOf r1 t) (basisOf r t);
    j_keep : forall t, containsSimplex r t = true -> incl (basisOf r t) bs -> containsSimplex r1 t = true;
    j_done : forall s, In s done -> ~ In s R -> containsSimplex r1 s = false }.

  Lemma rstep_J done r1 u s : J done r1 -> exists r2 u', rstep r1 u s = (r2, Ok u') /\ J (done ++ [s]) r2.
  Proof.
    intros [Jv Jsub Jkeep Jdone]. unfold rstep.
    destruct (containsSimplex r1 s && negb (memn s R)) eqn:C.
    - apply andb_prop in C. destruct C as [C1 C2]. apply negb_true_iff in C2. apply memn_false in C2.
      destruct (deleteSimplex r1 s) as [r2 x] eqn:H.
      destruct (deleteSimplex_vertex_sets r1 s r2 x Jv C1 H) as (-> & Hv2 & Hm & Hb).
      exists r2, tt. split; [reflexivity|]. constructor; auto.
      + intros t Ht. pose proof (proj1 (Hm t) Ht) as [Ht1 _]. destruct (Jsub t Ht1) as [Ht0 Hs0]. split; auto.
        exact (sameset_trans _ _ _ (Hb t Ht) Hs0).
      + intros t Ht Hi. apply Hm. split; [now apply Jkeep|].
        intros Hincl. destruct (Jsub s C1) as [Cs Ss]. destruct (Jsub t (Jkeep t Ht Hi)) as [_ St].
        destruct (basis_nonempty r s Hv Cs) as (p & Hp).
        apply (outside_R s Cs C2 p Hp). apply Hi, St, Hincl, Ss, Hp.
      + intros s0 Hs0 Hn. apply in_app_or in Hs0. destruct (containsSimplex r2 s0) eqn:E; auto. apply Hm in E.
        destruct Hs0 as [Hs0|[<-|[]]].
        * destruct E as [E _]. rewrite (Jdone s0 Hs0 Hn) in E. discriminate.
        * destruct E as [_ E]. destruct (E (incl_refl _)).
    - exists r1, tt. split; [reflexivity|]. constructor; auto.
      intros s0 Hs0 Hn. apply in_app_or in Hs0. destruct Hs0 as [Hs0|[<-|[]]]; auto.
      destruct (containsSimplex r1 s) eqn:E; auto. simpl in C. apply negb_false_iff in C. apply memn_In in C. contradiction.
  Qed.

  Lemma fold_J L r' x : fold_left (lift_res rstep) L (r, Ok tt) = (r', x) -> x = Ok tt /\ J L r'.
  Proof.
    intros H. destruct (fold_res_total rstep (fun done r1 _ => J done r1) L) with (done := @nil name) (s := r) (a := tt)
      as (r2 & [] & E & HJ).
    - intros done r1 u s _. apply rstep_J.
    - constructor; auto; [intros t Ht; split; [exact Ht | apply sameset_refl] | intros s []].
    - rewrite E in H. injection H as <- <-. auto.
  Qed.
End R.

(* restrictBasisTo(bs): never fails on a list of points of the complex; afterwards exactly the simplices
   whose points all lie in bs are there, with the points they had; the reading survives *)
Theorem restrict_vertex_sets r bs r' x : vinv r -> restrictBasisTo r bs = (r', x) ->
  (pts r bs -> x = Ok tt) /\
  (x = Ok tt -> vinv r' /\
    (forall t, containsSimplex r' t = true <-> containsSimplex r t = true /\ incl (basisOf r t) bs) /\
    (forall t, containsSimplex r' t = true -> sameset (basisOf r' t) (basisOf r t))).
Proof.
  intros Hv H. pose proof (vinv_sinv r Hv) as HS. pose proof (vinv_pinv r Hv) as P.
  unfold restrictBasisTo in H.
  destruct (c_isBasis r bs true) as [b|e] eqn:Eb.
  2: { injection H as <- <-. split; [|discriminate]. intros Hp. rewrite (isBasis_fatal_pts r bs Hp) in Eb. discriminate. }
  destruct (retain_loop (S (S (r_nord r))) r (dedupn bs) (dedupn bs)) as [R|e] eqn:ER.
  2: { injection H as <- <-. split; [|discriminate]. intros _. exfalso.
       destruct (retain_loop_fuel r HS (S (S (r_nord r))) 0 (dedupn bs) (dedupn bs)) as (R & HR); [|lia|lia|congruence].
       intros p Hp. apply (proj1 (In_dedupn _ _)) in Hp.
       destruct (isBasis_fatal_ok r bs b Eb p Hp) as (i & Ap). exists 0, i. split; auto. }
  destruct (retain_loop_spec r (dedupn bs) (S (S (r_nord r))) (dedupn bs) (dedupn bs) R) as (R0 & Rcl & Rsound);
    auto using incl_refl; [intros y Hy Hn; contradiction|].
  assert (R0' : incl bs R) by (intros z Hz; apply R0; now apply In_dedupn).
  assert (Rs' : forall y, In y R -> In y bs \/ exists z, In y (cofaces r z)).
  { intros y Hy. destruct (Rsound y Hy) as [Hb|Hc]; auto. left. now apply (proj1 (In_dedupn _ _)) in Hb. }
  destruct (fold_J r Hv bs R R0' Rcl (simplices r false) r' x H) as [-> [Jv Jsub Jkeep Jdone]].
  split; [reflexivity|]. intros _. split; [exact Jv|]. split.
  - intros t. split.
    + intros Ht. destruct (Jsub t Ht) as [Ct St]. split; auto.
      intros p Hp. destruct (in_dec name_eq_dec p bs) as [M|M]; [exact M|]. exfalso.
      destruct (basis_point r Hv t p Ct Hp) as [Cp _].
      destruct (basis_point r' Jv t p Ht (proj2 (St p) Hp)) as [Cp' _].
      destruct (basis_in_points r t p P Hp) as (i & Ap).
      rewrite (Jdone p) in Cp'; [discriminate| |].
      * apply (In_simplices_iff r p P). exact Cp.
      * exact (point_outside r Hv bs R Rs' p i Ap M).
    + intros [Ct Hi]. now apply Jkeep.
  - intros t Ht. now destruct (Jsub t Ht).
Qed.
