(* AddEffect.v -- the exact effect of a successful addSimplex (C02: "adding by faces adds exactly
   one simplex ... and disturbs nothing else"), for every representation satisfying the shape
   invariant: the new simplex has the order and exactly the faces asked for, and every simplex that
   was there keeps its order, its position, its faces and its basis.  Plain Coq. *)
From Coq Require Import String ZArith Bool Arith List Lia.
From SV Require Import Names NamesFacts ListFacts Rep Fresh Complex Atomic RepInv Shapes Incidence.
Import ListNotations.
Open Scope nat_scope.

Lemma names_of_col_snoc_false l x c : length c = length l ->
  names_of_col (l ++ [x]) (c ++ [false]) = names_of_col l c.
Proof.
  unfold names_of_col. revert c. induction l as [|a l IH]; intros [|b c] H; simpl in *; try discriminate; auto.
  injection H as H. destruct b; simpl; [f_equal|]; now apply IH.
Qed.

Lemma names_of_col_longer l l2 c : length c <= length l -> names_of_col (l ++ l2) c = names_of_col l c.
Proof.
  unfold names_of_col. revert c. induction l as [|a l IH]; intros [|b c] H; simpl in *; try lia; auto.
  - now destruct l2.
  - destruct b; simpl; [f_equal|]; apply IH; lia.
Qed.

Lemma In_names_of_col_mark idx fs t : In t (names_of_col idx (mark idx fs)) <-> In t idx /\ In t fs.
Proof.
  unfold names_of_col, mark. induction idx as [|a l IH]; simpl; [tauto|].
  destruct (memn a fs) eqn:E; simpl.
  - apply memn_In in E. rewrite IH. split.
    + intros [<-|[H1 H2]]; auto.
    + intros [[<-|H1] H2]; auto.
  - rewrite IH. split.
    + intros [H1 H2]; auto.
    + intros [[<-|H1] H2]; auto. assert (Hm : memn a fs = true) by (now apply memn_In). congruence.
Qed.

Lemma names_of_col_last l x : names_of_col (l ++ [x]) (repeat false (length l) ++ [true]) = [x].
Proof. unfold names_of_col. induction l as [|a l IH]; simpl; auto. Qed.

Lemma getcol_app_col m col j : j < ncols m -> getcol j (app_col m col) = getcol j m.
Proof. intros H. unfold getcol, app_col, ncols in *. simpl. now rewrite app_nth1. Qed.
Lemma getcol_app_col_new m col : getcol (ncols m) (app_col m col) = col.
Proof. unfold getcol, app_col, ncols. simpl. rewrite app_nth2 by lia. now rewrite Nat.sub_diag. Qed.
Lemma getcol_app_zero_row m j : j < ncols m -> getcol j (app_zero_row m) = getcol j m ++ [false].
Proof.
  intros H. unfold getcol, app_zero_row, ncols in *. simpl.
  rewrite (nth_indep _ [] (([] : list bool) ++ [false])) by (now rewrite map_length).
  now rewrite (map_nth (fun c => c ++ [false])).
Qed.

Lemma length_getcol m nr nc j : dims m nr nc -> j < nc -> length (getcol j m) = nr.
Proof.
  intros (Hok & Hr & Hc) Hj. unfold getcol. unfold mat_ok in Hok. rewrite Forall_forall in Hok.
  rewrite (Hok (nth j (mcols m) [])); [exact Hr|]. apply nth_In. unfold ncols in Hc. lia.
Qed.

Lemma addSimplex_eq2 r fs id attr r' n :
  addSimplex r fs id attr = (r', Ok n) ->
  exists r2 h, same_obs r r2 /\ containsSimplex r2 n = false /\ NoDup fs /\
    check_faces r2 (length fs - 1) fs = Ok tt /\ (length fs - 1 = 0 -> fs = []) /\
    length fs - 1 <= r_nord r2 /\
    r' = add_final (add_struct r2 (length fs - 1)) fs n h (length fs - 1).
Proof. intros H. apply addSimplex_ok in H. destruct H as (r2 & h & H). exists r2, h. tauto. Qed.

Lemma assoc_old {B} s (l : list (name * B)) x v : assoc s l = Some v -> assoc s (l ++ [x]) = Some v.
Proof. intros H. now rewrite assoc_app, H. Qed.
Lemma assoc_new {B} s (l : list (name * B)) (v : B) : assoc s l = None -> assoc s (l ++ [(s, v)]) = Some v.
Proof. intros H. rewrite assoc_app, H. simpl. now rewrite name_eqb_refl. Qed.

Section EffectHere.
  Variables (r : rep) (fs : list name) (n : name) (h : handle) (k : nat).
  Hypothesis HS : sinv r.
  Hypothesis Hk : k < r_nord r.
  Let r' := add_final (pad r k) fs n h k.

  Lemma here_old s ks i : assoc s (r_simp r) = Some (ks, i) ->
    assoc s (r_simp r') = Some (ks, i) /\ faces r' s = faces r s /\ basisOf r' s = basisOf r s.
  Proof.
    intros As. destruct (pinv_pos_lt r s ks i (s_p r HS) As) as (Hks & Hi & _).
    assert (As' : assoc s (r_simp r') = Some (ks, i)) by (unfold r'; rewrite here_simp by assumption; now apply assoc_old).
    split; [exact As'|]. split.
    - unfold faces. rewrite As', As. destruct ks as [|ks']; [reflexivity|].
      pose proof (sinv_bnd_dims r ks' HS Hks) as D. destruct D as (Dok & Dr & Dc).
      fold (idxk r' ks') (bndk r' (S ks')). unfold r'. rewrite here_idxk, here_bndk by assumption.
      destruct (Nat.eqb_spec (S ks') k) as [<-|]; [|destruct (Nat.eqb_spec (S ks') (S k)) as [E|]].
      + cbn [Nat.ltb Nat.leb andb]. rewrite (eqb_false ks'), getcol_app_col by lia. reflexivity.
      + injection E as ->. rewrite Nat.eqb_refl, (ltb_true (S k)) by lia. cbn [andb]. rewrite getcol_app_zero_row by lia.
        apply names_of_col_snoc_false. apply (length_getcol _ _ _ _ (conj Dok (conj Dr Dc))). exact Hi.
      + cbn [andb]. now rewrite (eqb_false ks') by lia.
    - unfold basisOf. rewrite As', As. fold (idxk r' 0) (bask r' ks). unfold r'.
      rewrite here_idxk, here_bask by assumption.
      pose proof (sinv_bas_dims r ks HS Hks) as D. pose proof D as (_ & _ & Dc).
      destruct k as [|k']; cbn [Nat.eqb].
      + replace (getcol i (if ks =? 0 then _ else _)) with (getcol i (bask r ks) ++ [false]).
        * apply names_of_col_snoc_false. apply (length_getcol _ _ _ _ D). exact Hi.
        * destruct (Nat.eqb_spec ks 0) as [->|]; [rewrite getcol_app_col by (unfold ncols, app_zero_row in *; cbn [mcols]; rewrite map_length; lia)|];
            now rewrite getcol_app_zero_row by lia.
      + destruct (Nat.eqb_spec ks (S k')) as [->|]; [now rewrite getcol_app_col by lia | reflexivity].
  Qed.

  Lemma here_new : assoc n (r_simp r) = None -> check_faces r k fs = Ok tt -> (k = 0 -> fs = []) ->
    assoc n (r_simp r') = Some (k, length (idxk r k)) /\ forall t, In t (faces r' n) <-> In t fs.
  Proof.
    intros An Hchk Hk0.
    assert (As' : assoc n (r_simp r') = Some (k, length (idxk r k))) by (unfold r'; rewrite here_simp by assumption; now apply assoc_new).
    split; [exact As'|]. intros t. unfold faces. rewrite As'.
    destruct k as [|k'] eqn:Ek; [rewrite Hk0 by reflexivity; reflexivity|].
    fold (idxk r' k') (bndk r' (S k')). unfold r'. rewrite <- Ek in *.
    rewrite here_idxk, here_bndk, Nat.eqb_refl, (ltb_true 0), (eqb_false k') by (assumption || lia).
    cbn [andb]. replace (k - 1) with k' by lia.
    destruct (s_sh r HS k Hk) as [_ D]. destruct D as (_ & _ & Dc); [lia|]. rewrite <- Dc, getcol_app_col_new.
    rewrite In_names_of_col_mark. split; [tauto|]. intros Hin. split; [|exact Hin].
    destruct (check_faces_ok_orders r k fs Hchk t Hin) as (fo & fi & Af & Efo).
    assert (fo = k') by lia. subst fo. apply (pinv_at r t k' fi (s_p r HS)) in Af. eapply nth_error_In; eauto.
  Qed.
End EffectHere.

Theorem addSimplex_effect r fs id attr r' n : sinv r -> addSimplex r fs id attr = (r', Ok n) ->
  containsSimplex r n = false /\ NoDup fs /\
  orderOf r' n = Ok (length fs - 1) /\ (forall t, In t (faces r' n) <-> In t fs) /\
  (forall s, containsSimplex r s = true ->
     orderOf r' s = orderOf r s /\ indexOf r' s = indexOf r s /\ faces r' s = faces r s /\ basisOf r' s = basisOf r s) /\
  (forall s, containsSimplex r' s = containsSimplex r s || name_eqb s n).
Proof.
  intros HS H. destruct (addSimplex_contains r fs id attr r' n (s_p r HS) H) as [Hc Hall].
  apply addSimplex_ok in H. cbv zeta in H.
  destruct H as (r2 & h & Hs & _ & _ & _ & Hc2 & Hnd & Hchk & Hk0 & Hk & _ & ->).
  apply (sinv_same_obs _ _ Hs) in HS.
  destruct (same_obs_queries r r2 Hs) as (Qo & Qi & Qf & _ & Qb & Qc & _).
  (* the add happens at an order that exists, of a complex rg that answers every query as r2 does *)
  destruct (add_struct_wlog r2 _ HS Hk) as (rg & E & HSg & Hkg & Eg & Qg). rewrite E in *. clear E.
  apply containsSimplex_false_assoc in Hc2. rewrite <- Eg in Hc2.
  rewrite (check_faces_respects rg r2 _ fs (eq_sym Eg)) in Hchk.
  destruct (here_new rg fs n h _ HSg Hkg Hc2 Hchk Hk0) as [An Hfaces].
  split; [exact Hc|]. split; [exact Hnd|]. split; [apply orderOf_assoc; eauto|]. split; [exact Hfaces|].
  split; [|exact Hall].
  intros s Hcs. rewrite <- Qc in Hcs. apply containsSimplex_assoc in Hcs. destruct Hcs as (ks & i & As).
  rewrite <- Eg in As. destruct (here_old rg fs n h _ HSg Hkg s ks i As) as (A' & Hf & Hb).
  destruct (Qg s) as [Gf Gb]. rewrite <- Qo, <- Qi, <- Qf, <- Qb, <- Gf, <- Gb.
  unfold orderOf, indexOf. rewrite A', <- Eg, As. auto.
Qed.
