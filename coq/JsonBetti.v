(* JsonBetti.v -- the complex decoded from the JSON encoding of a complex has its Betti numbers
   (decoding replays the adds of copy(): JsonOk.decode_like_bulk_add; a copy has the Betti numbers
   of its source: SameBetti.copy_same_betti). *)
From Coq Require Import String ZArith Bool Arith List Lia.
From SV Require Import Rep Complex VInv Homology World JsonOk.
From SV Require SameBetti.
Import ListNotations.

Theorem json_same_betti src hp0 hp uid hp' r' k : vinv src ->
  decode hp (empty_rep uid) (encode_view hp0 (view_of src)) = (hp', r', Ok tt) ->
  betti1 r' k = betti1 src k.
Proof.
  intros Hv E.
  destruct (decode_like_bulk_add hp0 (view_of src) hp hp (empty_rep uid) rl0 []) as (hpd & Ed).
  rewrite E in Ed.
  destruct (addFrom_loop hp (empty_rep uid) RNone rl0 (view_of src) []) as [[[hpa ra] sta] xa] eqn:EL.
  cbn [fst snd] in Ed. injection Ed as _ -> Ex.
  apply (@SameBetti.copy_same_betti hp src uid hpa ra k Hv).
  unfold copy_new, addSimplicesFrom. rewrite EL. now rewrite <- Ex.
Qed.
