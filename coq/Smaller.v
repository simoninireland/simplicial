(* Smaller.v -- deleting a simplex makes a complex strictly smaller (C10), and a copy of a complex
   built by public operations equals it.  Plain Coq. *)
From Coq Require Import String ZArith Bool Arith List Lia.
From SV Require Import Names NamesFacts ListFacts Rep Fresh Complex Atomic RepInv Shapes Incidence AddEffect CopyFaithful Cmp.
From SV Require Import DelEffect StarOrder Closed ClosedReach.
Import ListNotations.
Open Scope nat_scope.

Lemma forceDelete_smaller r s k i : sinv r -> assoc s (r_simp r) = Some (k, i) ->
  let r' := fst (forceDeleteSimplex r s) in
  c_le r' r = true /\ numberOfSimplices r' < numberOfSimplices r.
Proof.
  intros HS As r'. pose proof (d_sinv r s k i HS As) as HS'. fold r' in HS'.
  pose proof (s_p r HS) as P. pose proof (s_p r' HS') as P'. split.
  - apply le_iff. intros k0 t Hk0 Ht. apply (listed_assoc r' t k0 P') in Ht. destruct Ht as [j At'].
    destruct (d_sub r s k i HS As t (assoc_contains _ _ _ _ At')) as [Hc Hne].
    apply containsSimplex_assoc in Hc. destruct Hc as (kt & it & At).
    destruct (d_pos r s k i HS As t kt it Hne At) as (_ & E & _). fold r' in E. rewrite At' in E. injection E as -> _.
    split; [exact (assoc_contains _ _ _ _ At)|]. split; [apply orderOf_assoc; eauto|].
    intros u Hu. destruct (d_faces r s k i HS As t kt it Hne At) as [Hf _]. apply Hf in Hu. tauto.
  - rewrite !numberOfSimplices_length by assumption.
    assert (Hincl : incl (s :: simplices r' false) (simplices r false)).
    { intros t [<-|Ht]; apply (In_simplices_iff r _ P); [exact (assoc_contains _ _ _ _ As)|].
      apply (In_simplices_iff r' t P') in Ht. now destruct (d_sub r s k i HS As t Ht). }
    assert (Hnd : NoDup (s :: simplices r' false)).
    { constructor; [|apply simplices_nodup; exact P']. intros Hin. apply (In_simplices_iff r' s P') in Hin.
      pose proof (d_gone r s k i HS As) as Hg. fold r' in Hg. congruence. }
    pose proof (NoDup_incl_length Hnd Hincl) as Hlen. cbn [length] in Hlen. lia.
Qed.

Lemma fold_delete_smaller : forall (L : list name) rc,
  sinv rc -> NoDup L -> (forall t, In t L -> containsSimplex rc t = true) ->
  forall r' x, fold_left del_step L (rc, Ok tt) = (r', x) ->
  sinv r' /\ c_le r' rc = true /\ numberOfSimplices r' + length L <= numberOfSimplices rc.
Proof.
  induction L as [|t L IH]; intros rc HS Hnd Hin r' x H; simpl in H.
  - injection H as <- _. split; [exact HS|]. split; [apply le_refl, (s_p rc HS) | simpl; lia].
  - inversion Hnd as [|y ys Hy Hys]; subst.
    destruct (proj1 (containsSimplex_assoc rc t) (Hin t (or_introl eq_refl))) as (k & i & At).
    rewrite (del_ok rc t k i At) in H.
    destruct (forceDelete_smaller rc t k i HS At) as [Hle1 Hlt1].
    pose proof (d_sinv rc t k i HS At) as HS1.
    set (r1 := fst (forceDeleteSimplex rc t)) in *.
    assert (Hin1 : forall t', In t' L -> containsSimplex r1 t' = true).
    { intros t' Ht'. assert (Hne : t' <> t) by (intros ->; contradiction).
      destruct (proj1 (containsSimplex_assoc rc t') (Hin t' (or_intror Ht'))) as (k2 & i2 & A2).
      destruct (d_pos rc t k i HS At t' k2 i2 Hne A2) as (_ & A' & _). exact (assoc_contains _ _ _ _ A'). }
    destruct (IH r1 HS1 Hys Hin1 r' x H) as (HS' & Hle & Hcnt).
    split; [exact HS'|]. split.
    + apply (le_trans r' r1 rc); [exact (s_p r1 HS1) | exact Hle | exact Hle1].
    + simpl. lia.
Qed.

Theorem deleteSimplex_strictly_smaller r s r' x : sinv r -> containsSimplex r s = true ->
  deleteSimplex r s = (r', x) -> c_lt r' r = true.
Proof.
  intros HS Hc H. unfold deleteSimplex in H.
  unfold containsSimplex in Hc. destruct (assoc s (r_simp r)) as [[k is]|] eqn:As; [|discriminate].
  destruct (partOf r s true false) as [L|e] eqn:EP.
  2: { unfold partOf, orderOf in EP. rewrite As in EP. discriminate. }
  destruct (star_positions r HS s k is L As EP) as (Hnd & Hin & _).
  destruct (fold_delete_smaller L r HS Hnd Hin r' x H) as (_ & Hle & Hcnt).
  unfold c_lt. rewrite Hle. simpl. apply Nat.ltb_lt.
  assert (0 < length L).
  { unfold partOf, orderOf in EP. rewrite As in EP. injection EP as <-. rewrite app_length. simpl. lia. }
  lia.
Qed.

Lemma cinv_face_counts r : cinv r -> face_counts r.
Proof.
  intros Hc k t Ht. pose proof (proj1 (listed_iff_order r t k (s_p r (c_s r Hc))) Ht) as Ho.
  destruct (faces_of_a_simplex r t k Hc Ho) as (_ & _ & Hl). rewrite Hl. destruct k; simpl; lia.
Qed.

Theorem copy_equals_source_public hp a uid hp' c : cinv a ->
  copy_new hp (view_of a) uid = (hp', c, Ok tt) -> c_eq a c = true.
Proof. intros Hc. apply copy_equals_source; [exact (s_p a (c_s a Hc)) | now apply cinv_face_counts]. Qed.
