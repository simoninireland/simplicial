(* VRProofs.v -- the Vietoris-Rips construction in vertex sets (C12): the private complex that
   vietorisRipsComplex builds (the embedding's points, one edge per close pair) meets the
   vertex-set reading, has exactly those points and exactly those edges; its flag complex
   therefore has a simplex on a set of two or more points exactly when every two of them are a
   close pair.  Monotonicity in the set of close pairs, the empty and the full relation follow.
   Which pairs are close is the binary64 test of Floats.v, tied to the code bit for bit.  Plain Coq. *)
From Coq Require Import String ZArith Bool Arith List Lia.
From SV Require Import Names NamesFacts ListFacts Rep Fresh Complex Homology Atomic RepInv Shapes Incidence AddEffect
                       Closed ClosedReach AddBasis BasisInv Duality DeleteEffect CopyFaithful VInv AwbSpec Gen VSets GenSets
                       World FlagExt VIso MinCycle FlagSound FlagComplete.
Import ListNotations.
Open Scope nat_scope.

Lemma sameset_single (B : list name) p : NoDup B -> B <> [] -> incl B [p] -> B = [p].
Proof.
  intros Hn Hne Hi. destruct B as [|a [|b t]]; [congruence| |].
  - destruct (Hi a (or_introl eq_refl)) as [<-|[]]. reflexivity.
  - exfalso. destruct (Hi a (or_introl eq_refl)) as [<-|[]]. destruct (Hi b (or_intror (or_introl eq_refl))) as [<-|[]].
    inversion Hn as [|? ? Hx _]. apply Hx. now left.
Qed.

Lemma addSimplex_requested_name r fs n attr r' q : addSimplex r fs (Some n) attr = (r', Ok q) -> q = n.
Proof.
  intros H. destruct (addSimplex_ok r fs (Some n) attr r' q H) as (_ & _ & _ & _ & [E|E] & _); [|discriminate].
  now injection E.
Qed.

Section AddRun.
  Context {A : Type} (run : rep -> list A -> rep * res unit) (step : rep -> A -> rep * res name)
          (ok : A -> Prop) (phi : A -> list name -> Prop).
  Hypothesis run_nil : forall r, run r [] = (r, Ok tt).
  Hypothesis run_cons : forall r a t, run r (a :: t) = bindR (step r a) (fun r' _ => run r' t).
  Hypothesis step_carried : forall r a r1 n, vinv r -> ok a -> step r a = (r1, Ok n) ->
    vinv r1 /\ forall B, NoDup B -> B <> [] -> (carried r1 B <-> carried r B \/ phi a B).

  Lemma run_carried : forall l r r', vinv r -> (forall a, In a l -> ok a) -> run r l = (r', Ok tt) ->
    vinv r' /\ forall B, NoDup B -> B <> [] -> (carried r' B <-> carried r B \/ exists a, In a l /\ phi a B).
  Proof.
    induction l as [|a l IH]; intros r r' Hv Hok H.
    - rewrite run_nil in H. injection H as <-. split; [exact Hv|]. intros B _ _.
      split; [now left | intros [H|(a & [] & _)]; exact H].
    - rewrite run_cons in H. destruct (step r a) as [r1 [n|e]] eqn:E; simpl in H; [|discriminate].
      destruct (step_carried r a r1 n Hv (Hok a (or_introl eq_refl)) E) as (Hv1 & C1).
      destruct (IH r1 r' Hv1 (fun b Hb => Hok b (or_intror Hb)) H) as (Hv' & C'). split; [exact Hv'|].
      intros B HB Hne. rewrite (C' B HB Hne), (C1 B HB Hne). split.
      + intros [[Hc|Hp]|(x & Hx & Hp)]; [now left | right; exists a; split; [now left|exact Hp] | right; exists x; split; [now right|exact Hp]].
      + intros [Hc|(x & [<-|Hx] & Hp)]; [left; now left | left; now right | right; exists x; auto].
  Qed.
End AddRun.

Lemma add_named_point_carried r p r1 q : vinv r -> addSimplex r [] (Some p) None = (r1, Ok q) ->
  vinv r1 /\ forall B, NoDup B -> B <> [] -> (carried r1 B <-> carried r B \/ B = [p]).
Proof.
  intros Hv E. assert (q = p) by (eapply addSimplex_requested_name; eauto).
  subst q. destruct (add_point_spec r (Some p) None r1 p Hv E) as (Hv1 & _ & Hc1 & Hb1 & [O N]).
  split; [exact Hv1|]. intros B HB Hne. split.
  - intros (t & Ct & St). destruct (N t Ct) as [Cr|Hi].
    + left. exists t. split; [exact Cr|]. destruct (O t Cr) as (_ & _ & _ & Eb). now rewrite <- Eb.
    + right. apply sameset_single; auto. intros x Hx. apply Hi. now apply St.
  - intros [(t & Ct & St)|EB].
    + destruct (O t Ct) as (C1 & _ & _ & Eb). exists t. split; [exact C1|]. now rewrite Eb.
    + subst B. exists p. split; [exact Hc1|]. rewrite Hb1. intros x. tauto.
Qed.

Lemma add_named_points_carried ns r r' : vinv r -> add_named_points r ns = (r', Ok tt) ->
  vinv r' /\ forall B, NoDup B -> B <> [] -> (carried r' B <-> carried r B \/ exists p, In p ns /\ B = [p]).
Proof.
  intros Hv. apply (run_carried add_named_points (fun r p => addSimplex r [] (Some p) None) (fun _ => True));
    [reflexivity | reflexivity | | exact Hv | exact (fun _ _ => I)].
  intros ra p r1 q Ha _. exact (add_named_point_carried ra p r1 q Ha).
Qed.

Lemma carried_empty uid B : B <> [] -> ~ carried (empty_rep uid) B.
Proof. intros _ (t & Ct & _). discriminate. Qed.

Lemma add_bases_carried bss r r' : vinv r ->
  (forall bs, In bs bss -> NoDup bs /\ 2 <= length bs) ->
  add_bases r bss = (r', Ok tt) ->
  vinv r' /\ forall B, NoDup B -> B <> [] -> (carried r' B <-> carried r B \/ exists bs, In bs bss /\ incl B bs).
Proof.
  apply (run_carried add_bases (fun r bs => c_addSimplexWithBasis r bs None None)); [reflexivity | reflexivity |].
  intros ra bs r1 n Ha [Nbs Lbs] E. split; [exact (proj1 (addSimplexWithBasis_spec ra bs None None r1 n Ha Nbs Lbs E))|].
  exact (add_by_basis_vertex_sets ra bs None None r1 n Ha Nbs Lbs E).
Qed.

Definition pair_names (ss : list name) (ij : nat * nat) : list name := [nth (fst ij) ss (NInt 0); nth (snd ij) ss (NInt 0)].
Definition closepair (ss : list name) (close : list (nat * nat)) (p q : name) : Prop :=
  exists ij, In ij close /\ incl [p; q] (pair_names ss ij).

Theorem vr_build_spec uid r close vr : NoDup (simplicesOfOrder r 0) ->
  (forall ij, In ij close -> fst ij < snd ij /\ snd ij < length (simplicesOfOrder r 0)) ->
  vr_build uid r close = (vr, Ok tt) ->
  vinv vr /\
  (forall p, carried vr [p] <-> In p (simplicesOfOrder r 0)) /\
  (forall p q, p <> q -> (carried vr [p; q] <-> closepair (simplicesOfOrder r 0) close p q)).
Proof.
  intros Hnd Hcl H. unfold vr_build in H. set (ss := simplicesOfOrder r 0) in *.
  destruct (add_named_points (empty_rep uid) ss) as [r1 [[]|e]] eqn:E1; simpl in H; [|discriminate].
  destruct (add_named_points_carried ss (empty_rep uid) r1 (vinv_empty uid) E1) as (Hv1 & C1).
  assert (Hb : forall bs, In bs (map (fun ij => [nth (fst ij) ss (NInt 0); nth (snd ij) ss (NInt 0)]) close) ->
               NoDup bs /\ 2 <= length bs).
  { intros bs Hin. apply in_map_iff in Hin. destruct Hin as (ij & <- & Hij). destruct (Hcl ij Hij) as [H1 H2].
    split; [|simpl; lia]. apply nodup2. intros E. apply (proj1 (NoDup_nth ss (NInt 0)) Hnd) in E; lia. }
  destruct (add_bases_carried _ r1 vr Hv1 Hb H) as (Hv & C).
  split; [exact Hv|]. split.
  - intros p. rewrite (C [p] (nodup1 p)), (C1 [p] (nodup1 p)) by discriminate. split.
    + intros [[Hc|(x & Hx & E)]|(bs & Hin & Hi)].
      * exfalso. eapply carried_empty; eauto. discriminate.
      * injection E as ->. exact Hx.
      * apply in_map_iff in Hin. destruct Hin as (ij & <- & Hij). destruct (Hcl ij Hij) as [H1 H2].
        destruct (Hi p (or_introl eq_refl)) as [<-|[<-|[]]]; apply nth_In; lia.
    + intros Hp. left. right. exists p. auto.
  - intros p q Ne.
    rewrite (C [p; q] (nodup2 p q Ne)), (C1 [p; q] (nodup2 p q Ne)) by discriminate. split.
    + intros [[Hc|(x & Hx & E)]|(bs & Hin & Hi)].
      * exfalso. eapply carried_empty; eauto. discriminate.
      * discriminate.
      * apply in_map_iff in Hin. destruct Hin as (ij & <- & Hij). exists ij. split; [exact Hij | exact Hi].
    + intros (ij & Hij & Hi). right. exists (pair_names ss ij). split; [|exact Hi].
      apply in_map_iff. exists ij. split; [reflexivity | exact Hij].
Qed.

Lemma point_carried r p : vinv r -> (carried r [p] <-> orderOf r p = Ok 0).
Proof.
  intros Hv. rewrite orderOf_assoc. split.
  - intros (t & Ct & St). destruct (order_of_basis r t [p] Hv Ct (nodup1 p) St) as (j & A). simpl in A.
    destruct (b_b r (v_b r Hv) t 0 j A) as [B0 _]. rewrite (B0 eq_refl) in St.
    destruct (proj1 (St t) (or_introl eq_refl)) as [<-|[]]. now exists j.
  - intros (j & A). exists p. split; [exact (assoc_contains r p 0 j A)|].
    destruct (b_b r (v_b r Hv) p 0 j A) as [B0 _]. rewrite (B0 eq_refl). intros x. tauto.
Qed.

Lemma edge_carried_iff r p q : vinv r -> p <> q -> (edge_of r p q <-> carried r [p; q]).
Proof.
  intros Hv Ne. split; intros (e & He & Se).
  - exists e. split; [|exact Se]. apply (contains_iff_listed r e (vinv_pinv r Hv)). eauto.
  - exact (edge_of_pair r e p q Hv Ne He Se).
Qed.

(* C12: the Vietoris-Rips complex of the close pairs *)
Theorem vr_family hp uid u r close vr hp1 c :
  NoDup (simplicesOfOrder r 0) ->
  (forall ij, In ij close -> fst ij < snd ij /\ snd ij < length (simplicesOfOrder r 0)) ->
  vr_build uid r close = (vr, Ok tt) -> copy_new hp (view_of vr) u = (hp1, c, Ok tt) ->
  exists r', flagComplex hp vr u = (hp1, r', Ok tt) /\ vinv r' /\
    (forall p, carried r' [p] <-> In p (simplicesOfOrder r 0)) /\
    (forall B, NoDup B -> 2 <= length B ->
       (carried r' B <-> forall p q, In p B -> In q B -> p <> q -> closepair (simplicesOfOrder r 0) close p q)).
Proof.
  intros Hnd Hcl Hb E0. destruct (vr_build_spec uid r close vr Hnd Hcl Hb) as (Hv & Pts & Eds).
  destruct (flagComplex_is_clique_complex hp vr u hp1 c Hv E0) as (r' & Ef & V' & Iff).
  exists r'. split; [exact Ef|]. split; [exact V'|]. split.
  - intros p. rewrite <- (Pts p), (point_carried r' p V'), (point_carried vr p Hv).
    exact (flagComplex_same_points hp vr u hp1 r' p (vinv_cinv vr Hv) Ef).
  - intros B HB LB. rewrite (Iff B HB LB). unfold clique. split; intros H p q Hp Hq Ne.
    + apply (Eds p q Ne). apply (edge_carried_iff vr p q Hv Ne). now apply H.
    + apply (edge_carried_iff vr p q Hv Ne). apply (Eds p q Ne). now apply H.
Qed.

(* consequences, stated on any two results that satisfy the family equation *)
Definition vr_fam (ss : list name) (close : list (nat * nat)) (r' : rep) : Prop :=
  forall B, NoDup B -> 2 <= length B ->
    (carried r' B <-> forall p q, In p B -> In q B -> p <> q -> closepair ss close p q).

Corollary vr_monotone ss close1 close2 r1 r2 : incl close1 close2 -> vr_fam ss close1 r1 -> vr_fam ss close2 r2 ->
  forall B, NoDup B -> 2 <= length B -> carried r1 B -> carried r2 B.
Proof.
  intros Hi F1 F2 B HB LB H. apply (F2 B HB LB). intros p q Hp Hq Ne.
  destruct (proj1 (F1 B HB LB) H p q Hp Hq Ne) as (ij & Hij & Hin). exists ij. split; [now apply Hi | exact Hin].
Qed.

Corollary vr_no_pairs ss r' : vr_fam ss [] r' -> forall B, NoDup B -> 2 <= length B -> ~ carried r' B.
Proof.
  intros F B HB LB H. destruct B as [|p [|q t]]; simpl in LB; try lia.
  assert (Ne : p <> q). { intros ->. inversion HB as [|? ? Hn _]. apply Hn. now left. }
  destruct (proj1 (F _ HB LB) H p q (or_introl eq_refl) (or_intror (or_introl eq_refl)) Ne) as (ij & [] & _).
Qed.

Corollary vr_all_pairs ss close r' : NoDup ss ->
  (forall i j, i < j -> j < length ss -> In (i, j) close) -> vr_fam ss close r' ->
  forall B, NoDup B -> 2 <= length B -> incl B ss -> carried r' B.
Proof.
  intros Hnd Hall F B HB LB Hi. apply (F B HB LB). intros p q Hp Hq Ne.
  apply Hi in Hp, Hq. apply (In_nth _ _ (NInt 0)) in Hp, Hq. destruct Hp as (i & Hil & <-). destruct Hq as (j & Hjl & <-).
  destruct (Nat.lt_trichotomy i j) as [Hlt|[->|Hgt]]; [|congruence|].
  - exists (i, j). split; [now apply Hall|]. unfold pair_names. simpl. intros z [<-|[<-|[]]]; [now left | right; now left].
  - exists (j, i). split; [now apply Hall|]. unfold pair_names. simpl. intros z [<-|[<-|[]]]; [right; now left | now left].
Qed.
