(* ComposeAttrs.v -- the attribute values of a.compose(c) (C16): when the call succeeds, every simplex of the
   result has a dictionary of the result's own holding -- for a simplex of both operands the dictionary of a
   updated with that of c (c wins on a shared key), for a simplex of one operand what that operand's dictionary
   holds; the operands' dictionaries are not written.  Plain Coq. *)
From Coq Require Import Bool List Lia.
From SV Require Import Names NamesFacts Rep Complex RepInv Homology WorldProofs CopyFaithful CopyAttrs ComposeProofs.
Import ListNotations.
Open Scope nat_scope.

(* c[s] as the model reads it: a simplex without an entry gets the handle (0, 0), a cell of owner 0 --
   hence `uid <> 0` wherever cells of owner uid must differ from the operands' *)
Definition cell (r : rep) (s : name) : handle := match assoc s (r_attr r) with Some h => h | None => (0, 0) end.
Definition merge (da dc : dict) : dict := fold_left (fun dd kv => dict_set dd (fst kv) (snd kv)) dc da.

Section ComposeAttrs.
  Variables (a c : rep) (uid : nat) (hp : heap).
  Hypothesis Pa : pinv a.
  Hypothesis Pc : pinv c.
  Hypothesis Oa : forall s h, assoc s (r_attr a) = Some h -> fst h <> uid.
  Hypothesis Oc : forall s h, assoc s (r_attr c) = Some h -> fst h <> uid.
  Hypothesis Hu0 : uid <> 0.

  Lemma cell_foreign r : (forall s h, assoc s (r_attr r) = Some h -> fst h <> uid) -> forall s, fst (cell r s) <> uid.
  Proof. intros O s. unfold cell. destruct (assoc s (r_attr r)) as [h|] eqn:A; [eapply O; eauto|simpl; auto]. Qed.

  (* what the dictionary of s holds once the simplices in `done` (of c) have been handled *)
  Definition val (done : list name) (s : name) : dict :=
    if memn s done then
      (if containsSimplex a s then merge (heap_get hp (cell a s)) (heap_get hp (cell c s)) else heap_get hp (cell c s))
    else heap_get hp (cell a s).

  Record cainv (done : list name) (hp1 : heap) (d : rep) : Prop := {
    ca_st : cstate a c done d;
    ca_a : ainv uid d;
    ca_frame : forall h0, fst h0 <> uid -> heap_get hp1 h0 = heap_get hp h0;
    ca_val : forall s, containsSimplex d s = true -> exists h', assoc s (r_attr d) = Some h' /\ heap_get hp1 h' = val done s }.

  Lemma val_snoc_other done s t : t <> s -> val (done ++ [s]) t = val done t.
  Proof. intros Hne. unfold val. now rewrite memn_snoc_other. Qed.

  Lemma memn_snoc_same done s : memn s (done ++ [s]) = true.
  Proof. apply memn_In. apply in_or_app. right. now left. Qed.

  Lemma step_cainv done hp1 d s hp2 d2 : cainv done hp1 d ->
    compose_step a c (hp1, d, Ok tt) s = (hp2, d2, Ok tt) -> cainv (done ++ [s]) hp2 d2.
  Proof.
    intros [St A Fr Va] E.
    pose proof (cstate_step a c done hp1 d s hp2 d2 St E) as St2.
    pose proof (cs_mem _ _ _ _ St) as Hmem.
    apply compose_step_inv in E. destruct E as [(Cs & _ & -> & ->)|(Cs & _ & EA)].
    - (* a simplex of both: its dictionary in the result is replaced by a new cell holding the merge *)
      destruct A as [Au Ad Ao].
      assert (Cd : containsSimplex d s = true) by (rewrite Hmem, Cs; reflexivity).
      constructor; [exact St2| | |].
      + constructor; cbn [setAttributes alloc fst snd r_uid r_attr r_simp r_nalloc].
        * exact Au.
        * intros t. destruct (name_eq_dec t s) as [->|Hne].
          -- rewrite assoc_set_same. unfold containsSimplex in Cd. destruct (assoc s (r_simp d)); [split; discriminate|discriminate].
          -- rewrite assoc_set_other by exact Hne. apply Ad.
        * intros t h0. destruct (name_eq_dec t s) as [->|Hne].
          -- rewrite assoc_set_same. intros [= <-]. simpl. split; [exact Au|lia].
          -- rewrite assoc_set_other by exact Hne. intros A0. destruct (Ao t h0 A0). split; [assumption|lia].
      + intros h0 Hne. rewrite heap_get_set_other; [now apply Fr|]. intros ->. exact (Hne Au).
      + intros t Ct. change (containsSimplex d t = true) in Ct. cbn [setAttributes r_attr alloc fst].
        destruct (name_eq_dec t s) as [->|Hne].
        * exists (snd (alloc d)). rewrite assoc_set_same, heap_get_set_same. split; [reflexivity|].
          unfold val. rewrite memn_snoc_same, Cs. fold (cell a s) (cell c s).
          rewrite !Fr by (apply cell_foreign; assumption). reflexivity.
        * destruct (Va t Ct) as (ht & At & Ht). exists ht. rewrite assoc_set_other by exact Hne. split; [exact At|].
          rewrite val_snoc_other by exact Hne. rewrite heap_get_set_other; [exact Ht|].
          (* an older cell of the result has a smaller number than the new one *)
          intros ->. destruct (Ao t _ At) as [_ Hlt]. simpl in Hlt. lia.
    - (* a simplex of c only: added with a new cell holding what c's dictionary holds *)
      assert (Hsrc : forall s0 fs h, In (s0, (fs, h)) [vw c s] -> fst h <> uid).
      { intros s0 fs h [[= _ _ <-]|[]]. apply (cell_foreign c Oc). }
      destruct (bulk_add_attrs uid _ _ _ _ _ _ _ _ _ A Hsrc EA) as (A2 & Hadd & Hkeep & Hfr).
      constructor; [exact St2|exact A2| |].
      + intros h0 Hne. now rewrite Hfr, Fr.
      + intros t Ct. destruct (name_eq_dec t s) as [->|Hne].
        * destruct (Hadd s _ _ (or_introl eq_refl)) as (h' & Ah & _ & Hg). exists h'. split; [exact Ah|].
          rewrite Hg. unfold val. rewrite memn_snoc_same, Cs. apply Fr, (cell_foreign c Oc).
        * rewrite (cs_mem _ _ _ _ St2), memn_snoc_other, <- Hmem in Ct by exact Hne.
          destruct (Va t Ct) as (ht & At & Ht). destruct (Hkeep t ht At) as [At2 Hg]. exists ht. split; [exact At2|].
          rewrite Hg, Ht. symmetry. now apply val_snoc_other.
  Qed.

  Theorem compose_attrs hp' d : compose hp a c None uid = (hp', d, Ok tt) ->
    (forall s, containsSimplex d s = true ->
       exists h', assoc s (r_attr d) = Some h' /\ fst h' = uid /\
         heap_get hp' h' =
           if containsSimplex c s then
             (if containsSimplex a s then merge (heap_get hp (cell a s)) (heap_get hp (cell c s)) else heap_get hp (cell c s))
           else heap_get hp (cell a s)) /\
    (forall h0, fst h0 <> uid -> heap_get hp' h0 = heap_get hp h0).
  Proof.
    intros H. destruct (compose_ok_inv hp a c uid hp' d Pc H) as (hp1 & d0 & E0 & E).
    (* the copy: every simplex of a has a cell of the result holding what a's dictionary holds *)
    destruct (copy_new_ok _ _ _ _ _ E0) as (stx & ns & EL).
    assert (Hinv00 : ainv uid (empty_rep uid)).
    { constructor; [reflexivity | intros s; simpl; tauto | intros s h Hh; discriminate]. }
    assert (Hsrc : forall s fs h, In (s, (fs, h)) (view_of a) -> fst h <> uid).
    { intros s fs h Hin. apply in_map_iff in Hin. destruct Hin as (s0 & [= _ _ <-] & _). apply (cell_foreign a Oa). }
    destruct (bulk_add_attrs uid _ _ _ _ _ _ _ _ _ Hinv00 Hsrc EL) as (A0 & Hall & _ & Hframe).
    assert (C0 : cainv [] hp1 d0).
    { pose proof (cstate_copy hp a c uid hp1 d0 Pa E0) as St0. constructor; [exact St0|exact A0|exact Hframe|].
      intros s Cs. rewrite (cs_mem _ _ _ _ St0), orb_false_r in Cs. apply (In_simplices_iff a s Pa) in Cs.
      destruct (Hall s (faces a s) (cell a s)) as (h' & Ah & _ & Hg); [now apply (in_map (vw a))|].
      exists h'. split; [exact Ah | exact Hg]. }
    destruct (compose_fold_ind a c cainv step_cainv _ [] _ _ _ _ C0 E) as [St A Fr Va].
    split; [|exact Fr].
    intros s Cs. destruct (Va s Cs) as (h' & Ah & Hg). exists h'. split; [exact Ah|].
    split; [exact (proj1 (a_own uid d A s h' Ah))|].
    rewrite Hg. unfold val. cbn [app]. now rewrite (memn_simplices c s Pc).
  Qed.
End ComposeAttrs.

Lemma dict_get_set d k v k' : dict_get (dict_set d k v) k' = if String.eqb k' k then Some v else dict_get d k'.
Proof.
  induction d as [|[k0 v0] t IH]; simpl.
  - reflexivity.
  - destruct (String.eqb k k0) eqn:E; simpl.
    + apply String.eqb_eq in E. subst k0. destruct (String.eqb k' k); reflexivity.
    + destruct (String.eqb k' k0) eqn:E1.
      * apply String.eqb_eq in E1. subst k0. destruct (String.eqb k' k) eqn:E2; [|reflexivity].
        apply String.eqb_eq in E2. subst k'. rewrite String.eqb_refl in E. discriminate.
      * exact IH.
Qed.

Lemma dict_get_app d1 d2 k : dict_get (d1 ++ d2) k = match dict_get d1 k with Some v => Some v | None => dict_get d2 k end.
Proof. induction d1 as [|[k0 v0] t IH]; simpl; [reflexivity|]. destruct (String.eqb k k0); auto. Qed.

(* reading key k from the merge: the last entry for k in c's dictionary if there is one, else a's entry *)
Theorem merge_spec : forall dc da k,
  dict_get (merge da dc) k = match dict_get (rev dc) k with Some v => Some v | None => dict_get da k end.
Proof.
  induction dc as [|[k0 v0] t IH]; intros da k.
  - reflexivity.
  - change (merge da ((k0, v0) :: t)) with (merge (dict_set da k0 v0) t). rewrite IH. simpl rev.
    rewrite dict_get_app. destruct (dict_get (rev t) k); [reflexivity|]. simpl. rewrite dict_get_set.
    destruct (String.eqb k k0); reflexivity.
Qed.
