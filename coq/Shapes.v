(* Shapes.v -- the boundary and basis matrices keep the shapes the listings dictate, over every
   history: bnd[k] is len(idx[k-1]) x len(idx[k]), bas[k] is len(idx[0]) x len(idx[k]), every
   column has as many entries as the matrix has rows (C03).  Plain Coq. *)
From Coq Require Import String ZArith Bool Arith List Lia.
From SV Require Import Names NamesFacts ListFacts Rep Fresh Complex Atomic RepInv.
Import ListNotations.
Open Scope nat_scope.

(* a successful addSimplex, as one equation (addSimplex_named): add_struct makes room at order k,
   add_final enters the simplex *)
Definition add_struct (r2 : rep) (k : nat) : rep :=
  let rg := if r_nord r2 <=? k
            then let idx' := r_idx r2 ++ [[]] in
                 let prev := match k with 0 => last idx' [] | S k' => nth k' idx' [] end in
                 set_struct r2 (S k) idx' (r_bnd r2 ++ [zeros (length prev) 0])
                            (r_bas r2 ++ [zeros (length (nth 0 idx' [])) 0])
            else r2 in
  if S k <? r_nord rg
  then set_struct rg (r_nord rg) (r_idx rg) (upd_nth (S k) app_zero_row emptymat (r_bnd rg)) (r_bas rg)
  else rg.

Definition add_final (r : rep) (fs : list name) (id : name) (h : handle) (k : nat) : rep :=
  match k with
  | 0 =>
      let idx' := upd_nth 0 (fun l => l ++ [id]) [] (r_idx r) in
      let si := length (nth 0 idx' []) - 1 in
      let bas1 := if 1 <? r_nord r
                  then map (fun p => if (0 <? fst p) && (fst p <? r_nord r)
                                     then app_zero_row (snd p) else snd p)
                           (combine (seq 0 (length (r_bas r))) (r_bas r))
                  else r_bas r in
      let b0 := nth 0 bas1 emptymat in
      let b0' := if nrows b0 =? 0 then mkMat 1 [[true]]
                 else mkMat (S (nrows b0))
                            (map (fun c => c ++ [false]) (mcols b0) ++ [repeat false si ++ [true]]) in
      mkRep (r_uid r) (r_nord r) (r_simp r ++ [(id, (0, si))]) idx' (r_bnd r)
            (set_nth 0 b0' bas1) (r_attr r ++ [(id, h)]) (r_seq r) (r_nalloc r)
  | S k' =>
      let bs := flat_map (basisOf r) fs in
      let idx' := upd_nth k (fun l => l ++ [id]) [] (r_idx r) in
      let si := length (nth k idx' []) - 1 in
      mkRep (r_uid r) (r_nord r) (r_simp r ++ [(id, (k, si))]) idx'
            (upd_nth k (fun m => app_col m (mark (idxk r k') fs)) emptymat (r_bnd r))
            (upd_nth k (fun m => app_col m (mark (idxk r 0) bs)) emptymat (r_bas r))
            (r_attr r ++ [(id, h)]) (r_seq r) (r_nalloc r)
  end.

Lemma addSimplex_named r fs n h r' m : addSimplex r fs (Some n) (Some h) = (r', Ok m) ->
  r' = add_final (add_struct r (length fs - 1)) fs n h (length fs - 1).
Proof.
  unfold addSimplex, add_struct. intros H.
  destruct (_ && _); [discriminate|]. destruct (containsSimplex r n); [discriminate|].
  destruct (negb _); [discriminate|]. destruct (check_faces _ _ _); [|discriminate].
  destruct (r_nord r <=? length fs - 1).
  - destruct (r_nord r <? _); [discriminate|]. destruct (length fs - 1); now injection H.
  - destruct (0 <? _); [destruct (simplexWithFaces r fs) as [[sw|]|e]; try discriminate|];
      destruct (length fs - 1); now injection H.
Qed.

(* every accepted request: what addSimplex_inv says, with the result written out *)
Lemma addSimplex_ok r fs id attr r' n : addSimplex r fs id attr = (r', Ok n) ->
  let k := length fs - 1 in
  exists r2 h, same_obs r r2 /\ (id <> None -> attr <> None -> r2 = r) /\
    (id = Some n \/ id = None) /\ (attr = Some h \/ attr = None /\ fst h = r_uid r) /\
    containsSimplex r2 n = false /\ NoDup fs /\ check_faces r2 k fs = Ok tt /\
    (k = 0 -> fs = []) /\ k <= r_nord r2 /\ (0 < k < r_nord r2 -> simplexWithFaces r2 fs = Ok None) /\
    r' = add_final (add_struct r2 k) fs n h k.
Proof.
  intros H. apply addSimplex_inv in H. cbv zeta in *.
  destruct H as (r2 & Hs & _ & _ & Hr & h & H & F). apply addSimplex_named in H.
  exists r2, h. tauto.
Qed.

Lemma addSimplex_eq r fs id attr r' n :
  addSimplex r fs id attr = (r', Ok n) ->
  exists r2 h, same_obs r r2 /\ length fs - 1 <= r_nord r2 /\ r' = add_final (add_struct r2 (length fs - 1)) fs n h (length fs - 1).
Proof. intros H. apply addSimplex_ok in H. destruct H as (r2 & h & H). exists r2, h. tauto. Qed.

Definition mat_ok (m : mat) : Prop := Forall (fun c => length c = nrows m) (mcols m).
Definition dims (m : mat) (nr nc : nat) : Prop := mat_ok m /\ nrows m = nr /\ ncols m = nc.

Lemma dims_zeros a b : dims (zeros a b) a b.
Proof.
  unfold dims, mat_ok, zeros, ncols. simpl. repeat split.
  - apply Forall_forall. intros c Hc. apply repeat_spec in Hc. subst. apply repeat_length.
  - apply repeat_length.
Qed.
Lemma dims_app_col m nr nc col : dims m nr nc -> length col = nr -> dims (app_col m col) nr (S nc).
Proof.
  intros (H1 & H2 & H3) Hc. unfold dims, mat_ok, app_col, ncols in *. simpl. repeat split; auto.
  - apply Forall_app. split; auto. constructor; [congruence | constructor].
  - rewrite app_length. simpl. lia.
Qed.
Lemma dims_app_zero_row m nr nc : dims m nr nc -> dims (app_zero_row m) (S nr) nc.
Proof.
  intros (H1 & H2 & H3). unfold dims, mat_ok, app_zero_row, ncols in *. simpl. repeat split; auto.
  - apply Forall_forall. intros c Hc. apply in_map_iff in Hc. destruct Hc as [c0 [<- Hc0]].
    rewrite app_length. simpl. rewrite Forall_forall in H1. rewrite (H1 c0 Hc0). lia.
  - now rewrite map_length.
Qed.
Lemma dims_del_col m nr nc i : dims m nr nc -> i < nc -> dims (del_col i m) nr (nc - 1).
Proof.
  intros (H1 & H2 & H3) Hi. unfold dims, mat_ok, del_col, ncols in *. simpl. repeat split; auto.
  - rewrite Forall_forall in *. intros c Hc. apply H1. apply nth_error_In' in Hc. destruct Hc as [j Hj].
    rewrite nth_error_remove_nth in Hj. destruct (j <? i); eapply nth_error_In; eauto.
  - rewrite length_remove_nth by lia. lia.
Qed.
Lemma dims_del_row m nr nc i : dims m nr nc -> i < nr -> dims (del_row i m) (nr - 1) nc.
Proof.
  intros (H1 & H2 & H3) Hi. unfold dims, mat_ok, del_row, ncols in *. simpl. repeat split; auto.
  - apply Forall_forall. intros c Hc. apply in_map_iff in Hc. destruct Hc as [c0 [<- Hc0]].
    rewrite Forall_forall in H1. rewrite length_remove_nth by (rewrite (H1 c0 Hc0); lia). rewrite (H1 c0 Hc0). lia.
  - lia.
  - now rewrite map_length.
Qed.
Lemma length_mark names sel : length (mark names sel) = length names.
Proof. unfold mark. apply map_length. Qed.

Definition shape_k (r : rep) (k : nat) : Prop :=
  dims (bask r k) (length (idxk r 0)) (length (idxk r k)) /\
  (1 <= k -> dims (bndk r k) (length (idxk r (k - 1))) (length (idxk r k))).

Record sinv (r : rep) : Prop := mkSinv {
  s_p : pinv r;
  s_lb : length (r_bnd r) = r_nord r;
  s_ls : length (r_bas r) = r_nord r;
  s_sh : forall k, k < r_nord r -> shape_k r k }.

Lemma sinv_bas_dims r k : sinv r -> k < r_nord r -> dims (bask r k) (length (idxk r 0)) (length (idxk r k)).
Proof. intros HS Hk. apply (s_sh r HS k Hk). Qed.

Lemma sinv_bnd_dims r k' : sinv r -> S k' < r_nord r ->
  dims (bndk r (S k')) (length (idxk r k')) (length (idxk r (S k'))).
Proof.
  intros HS Hk. destruct (s_sh r HS (S k') Hk) as [_ H]. rewrite Nat.sub_1_r in H. apply H. lia.
Qed.

Lemma sinv_empty uid : sinv (empty_rep uid).
Proof. constructor; simpl; auto. apply pinv_empty. intros k H; lia. Qed.

Lemma sinv_same_obs r r' : same_obs r r' -> sinv r -> sinv r'.
Proof.
  intros Hs [P Lb Ls Sh]. apply (pinv_same_obs r r' Hs) in P. rewrite (same_obs_eq r r' Hs) in *. now constructor.
Qed.

(* relabelSimplex touches no matrix and no length *)
Theorem relabelSimplex_sinv r s q r' x : sinv r -> relabelSimplex r s q = (r', x) -> sinv r'.
Proof.
  revert r s q r' x. apply (relabelSimplex_lift sinv). intros r s q r' HS H.
  assert (HP : pinv r') by (eapply relabelSimplex_pinv; [apply HS | exact H]).
  unfold relabelSimplex in H. destruct (containsSimplex r q); [discriminate|].
  destruct (assoc s (r_simp r)) as [[k i]|]; [|discriminate]. injection H as <-.
  constructor; try apply HS; [exact HP|].
  intros k0 Hk0. pose proof (s_sh r HS k0 Hk0) as Sh. unfold shape_k, bask, bndk, idxk in *. cbn [r_idx r_bnd r_bas].
  assert (Hl : forall k1, length (nth k1 (upd_nth k (set_nth i q) [] (r_idx r)) []) = length (nth k1 (r_idx r) [])).
  { intros k1. rewrite nth_upd_nth. destruct (Nat.eqb_spec k1 k) as [->|]; [|reflexivity].
    destruct (k <? length (r_idx r)); [apply length_set_nth | reflexivity]. }
  rewrite !Hl. exact Sh.
Qed.

(* the matrices after an accepted forceDeleteSimplex of the simplex at place i of listing k:
   column i goes from the two matrices of order k, row i from the boundary matrix above, and,
   when a point goes, from every basis matrix *)
Lemma forceDelete_mats r s k i : sinv r -> assoc s (r_simp r) = Some (k, i) ->
  let r' := fst (forceDeleteSimplex r s) in
  length (r_bnd r') = r_nord r' /\ length (r_bas r') = r_nord r' /\
  (forall j, 1 <= j < r_nord r' ->
     bndk r' j = if j =? k then del_col i (bndk r k) else if j =? S k then del_row i (bndk r (S k)) else bndk r j) /\
  (forall j, j < r_nord r' ->
     bask r' j = (if k =? 0 then del_row i else fun m => m) (if j =? k then del_col i (bask r k) else bask r j)).
Proof.
  intros [P Lb Ls _] As r'. destruct (pinv_pos_lt r s k i P As) as (Hk & _ & Hkl).
  pose proof (forceDelete_nord r s k i P As) as Hn. fold r' in Hn.
  set (bas1 := upd_nth k (del_col i) emptymat (r_bas r)).
  set (bas2 := if k =? 0 then map (del_row i) bas1 else bas1).
  set (bnd1 := if 0 <? k then upd_nth k (del_col i) emptymat (r_bnd r) else r_bnd r).
  set (bnd2 := if S k <? r_nord r then upd_nth (S k) (del_row i) emptymat bnd1 else bnd1).
  assert (Hl1 : length bnd1 = r_nord r) by (unfold bnd1; destruct (0 <? k); now rewrite ?length_upd_nth).
  assert (Hl2 : length bnd2 = r_nord r) by (unfold bnd2; destruct (S k <? r_nord r); now rewrite ?length_upd_nth).
  assert (Hs2 : length bas2 = r_nord r) by (unfold bas2, bas1; destruct (k =? 0); now rewrite ?map_length, length_upd_nth).
  assert (Hb1 : forall j, 1 <= j -> nth j bnd1 emptymat = if j =? k then del_col i (bndk r k) else bndk r j).
  { intros j Hj. unfold bnd1. destruct (Nat.ltb_spec 0 k).
    - rewrite nth_upd_nth, Lb, (ltb_true k) by exact Hk. now rewrite andb_true_r.
    - now rewrite eqb_false by lia. }
  assert (Hb2 : forall j, 1 <= j -> nth j bnd2 emptymat =
            if j =? k then del_col i (bndk r k) else if (j =? S k) && (S k <? r_nord r) then del_row i (bndk r (S k)) else bndk r j).
  { intros j Hj. unfold bnd2. destruct (S k <? r_nord r) eqn:E.
    - rewrite nth_upd_nth, Hl1, E, andb_true_r, !Hb1, (eqb_false (S k)) by lia.
      destruct (Nat.eqb_spec j (S k)) as [->|]; [now rewrite eqb_false by lia | reflexivity].
    - now rewrite andb_false_r, Hb1. }
  assert (Hs : forall j, j < r_nord r -> nth j bas2 emptymat =
            (if k =? 0 then del_row i else fun m => m) (if j =? k then del_col i (bask r k) else bask r j)).
  { intros j Hj. assert (E : nth j bas1 emptymat = if j =? k then del_col i (bask r k) else bask r j).
    { unfold bas1. rewrite nth_upd_nth, Ls, (ltb_true k) by exact Hk. now rewrite andb_true_r. }
    unfold bas2. destruct (k =? 0); [|exact E].
    rewrite (nth_map_in _ emptymat), E by (unfold bas1; rewrite length_upd_nth; lia). reflexivity. }
  (* r' carries bnd2 and bas2, without their entries for order k when that order is dropped *)
  assert (Hraw : (r_bnd r' = bnd2 /\ r_bas r' = bas2 /\ r_nord r' = r_nord r) \/
                 (r_bnd r' = remove_nth k bnd2 /\ r_bas r' = remove_nth k bas2 /\ r_nord r' = k /\ S k = r_nord r)).
  { unfold r', forceDeleteSimplex. rewrite As. cbv zeta. fold bas1 bas2 bnd1 bnd2.
    rewrite nth_upd_nth_same by exact Hkl. fold (idxk r k).
    destruct (Nat.eqb_spec (S k) (r_nord r)); [destruct (length _ =? 0)|]; cbn [andb fst r_bnd r_bas r_nord]; auto 6. }
  unfold bndk, bask. destruct Hraw as [(-> & -> & ->)|(-> & -> & -> & Hd)].
  - split; [exact Hl2|]. split; [exact Hs2|]. split; [|exact Hs].
    intros j Hj. rewrite Hb2 by lia. destruct (Nat.eqb_spec j (S k)) as [->|]; [|reflexivity].
    now rewrite ltb_true by lia.
  - rewrite !length_remove_nth by lia. split; [lia|]. split; [lia|]. split.
    + intros j Hj. rewrite nth_remove_nth, ltb_true, Hb2, (eqb_false j), (eqb_false j) by lia. reflexivity.
    + intros j Hj. rewrite nth_remove_nth, ltb_true by lia. apply Hs. lia.
Qed.

Theorem forceDeleteSimplex_sinv r s r' x : sinv r -> forceDeleteSimplex r s = (r', x) -> sinv r'.
Proof.
  revert r s r' x. apply (forceDeleteSimplex_lift sinv). intros r s r' HS H.
  assert (HP : pinv r') by (eapply forceDeleteSimplex_pinv; [apply HS | exact H]).
  destruct (assoc s (r_simp r)) as [[k i]|] eqn:As; [|unfold forceDeleteSimplex in H; rewrite As in H; discriminate].
  apply (f_equal fst) in H. cbn [fst] in H. subst r'.
  destruct (forceDelete_mats r s k i HS As) as (Hlb & Hls & Hbnd & Hbas).
  destruct (pinv_pos_lt r s k i (s_p r HS) As) as (Hk & Hi & _).
  pose proof (forceDelete_nord r s k i (s_p r HS) As) as Hn.
  set (r' := fst (forceDeleteSimplex r s)) in *.
  assert (Hle : r_nord r' <= r_nord r) by (rewrite Hn; destruct (_ && _); lia).
  assert (Hidx : forall j, length (idxk r' j) = if j =? k then length (idxk r k) - 1 else length (idxk r j)).
  { intros j. unfold r'. rewrite (forceDelete_idx r s k i (s_p r HS) As).
    destruct (j =? k); [now apply length_remove_nth | reflexivity]. }
  constructor; auto. intros j Hj. split.
  - rewrite Hbas, !Hidx by exact Hj.
    assert (D : dims (if j =? k then del_col i (bask r k) else bask r j) (length (idxk r 0))
                     (if j =? k then length (idxk r k) - 1 else length (idxk r j))).
    { destruct (Nat.eqb_spec j k) as [->|]; [apply dims_del_col; [|exact Hi]|]; apply sinv_bas_dims; auto; lia. }
    destruct (Nat.eqb_spec k 0) as [->|Hk0].
    + change (0 =? 0) with true. cbv iota. now apply dims_del_row.
    + now rewrite (eqb_false 0 k) by lia.
  - intros H1. rewrite Hbnd, !Hidx by lia. destruct j as [|j']; [lia|]. rewrite Nat.sub_1_r. cbn [pred].
    pose proof (sinv_bnd_dims r j' HS ltac:(lia)) as D.
    destruct (Nat.eqb_spec (S j') k) as [<-|]; [|destruct (Nat.eqb_spec (S j') (S k)) as [E|]].
    + rewrite eqb_false by lia. now apply dims_del_col.
    + injection E as ->. rewrite Nat.eqb_refl. now apply dims_del_row.
    + now rewrite eqb_false by lia.
Qed.

Lemma add_struct_keeps r k : r_uid (add_struct r k) = r_uid r /\ r_simp (add_struct r k) = r_simp r /\
  r_attr (add_struct r k) = r_attr r /\ r_seq (add_struct r k) = r_seq r /\ r_nalloc (add_struct r k) = r_nalloc r.
Proof. unfold add_struct. destruct (r_nord r <=? k); cbn [r_nord set_struct]; destruct (S k <? _); repeat split. Qed.

Lemma add_struct_nord r k : k <= r_nord r -> r_nord (add_struct r k) = Nat.max (r_nord r) (S k).
Proof.
  intros Hk. unfold add_struct. destruct (Nat.leb_spec (r_nord r) k); cbn [r_nord set_struct].
  - rewrite Nat.ltb_irrefl. cbn [r_nord set_struct]. lia.
  - destruct (S k <? r_nord r); cbn [r_nord set_struct]; lia.
Qed.

Lemma add_struct_idxk r k j : idxk (add_struct r k) j = idxk r j.
Proof.
  unfold add_struct, idxk. destruct (r_nord r <=? k); cbn [r_nord set_struct]; destruct (S k <? _);
    cbn [r_idx set_struct]; now rewrite ?nth_app_snoc_nil.
Qed.

Lemma add_struct_len r k : r_nord r <= length (r_idx r) -> k <= r_nord r -> k < length (r_idx (add_struct r k)).
Proof.
  intros L Hk. unfold add_struct. destruct (Nat.leb_spec (r_nord r) k); cbn [r_nord set_struct];
    destruct (S k <? _); cbn [r_idx set_struct]; rewrite ?app_length; simpl; lia.
Qed.

Lemma add_final_keeps r fs n h k : let r' := add_final r fs n h k in
  r_uid r' = r_uid r /\ r_nord r' = r_nord r /\ r_attr r' = r_attr r ++ [(n, h)] /\
  r_seq r' = r_seq r /\ r_nalloc r' = r_nalloc r.
Proof. destruct k; repeat split. Qed.

Lemma add_final_idxk r fs n h k j : k < length (r_idx r) ->
  idxk (add_final r fs n h k) j = if j =? k then idxk r k ++ [n] else idxk r j.
Proof.
  intros Hk. unfold idxk. replace (r_idx (add_final r fs n h k)) with (upd_nth k (fun l => l ++ [n]) [] (r_idx r)) by (now destruct k).
  rewrite nth_upd_nth, (ltb_true k) by exact Hk. now rewrite andb_true_r.
Qed.

Lemma add_final_simp r fs n h k : k < length (r_idx r) ->
  r_simp (add_final r fs n h k) = r_simp r ++ [(n, (k, length (idxk r k)))].
Proof.
  intros Hk. replace (r_simp (add_final r fs n h k))
    with (r_simp r ++ [(n, (k, length (nth k (upd_nth k (fun l => l ++ [n]) [] (r_idx r)) []) - 1))]) by (now destruct k).
  rewrite nth_upd_nth_same, app_length, Nat.add_sub by exact Hk. reflexivity.
Qed.

Section AddFields.
  Variables (r : rep) (fs : list name) (n : name) (h : handle) (k : nat).
  Hypothesis L : r_nord r <= length (r_idx r).
  Hypothesis Hk : k <= r_nord r.
  Let r' := add_final (add_struct r k) fs n h k.

  Lemma add_simp : r_simp r' = r_simp r ++ [(n, (k, length (idxk r k)))].
  Proof.
    unfold r'. rewrite add_final_simp by now apply add_struct_len.
    rewrite add_struct_idxk. now destruct (add_struct_keeps r k) as (_ & -> & _).
  Qed.

  Lemma add_idxk j : idxk r' j = if j =? k then idxk r k ++ [n] else idxk r j.
  Proof. unfold r'. rewrite add_final_idxk by now apply add_struct_len. now rewrite !add_struct_idxk. Qed.
End AddFields.

(* add_struct in two steps: a new order k gets its empty listing and matrices, then the boundary
   matrix of order k + 1, if there is one, gets a zero row *)
Definition grow (r : rep) (k : nat) : rep :=
  let idx' := r_idx r ++ [[]] in
  let prev := match k with 0 => last idx' [] | S k' => nth k' idx' [] end in
  set_struct r (S k) idx' (r_bnd r ++ [zeros (length prev) 0]) (r_bas r ++ [zeros (length (nth 0 idx' [])) 0]).
Definition pad (r : rep) (k : nat) : rep :=
  set_struct r (r_nord r) (r_idx r)
             (if S k <? r_nord r then upd_nth (S k) app_zero_row emptymat (r_bnd r) else r_bnd r) (r_bas r).

Lemma add_struct_steps r k : add_struct r k = pad (if r_nord r <=? k then grow r k else r) k.
Proof.
  unfold add_struct, pad. fold (grow r k). destruct (S k <? r_nord _); [reflexivity|].
  now destruct (if r_nord r <=? k then grow r k else r).
Qed.

Lemma grow_sinv r : sinv r -> sinv (grow r (r_nord r)).
Proof.
  intros [P Lb Ls Sh]. set (k := r_nord r).
  assert (Hi : forall j, idxk (grow r k) j = idxk r j) by (intros j; apply nth_app_snoc_nil).
  assert (Hz : idxk r k = []) by (apply (pi_stale r P); lia).
  constructor; cbn [grow r_nord r_bnd r_bas set_struct]; rewrite ?app_length; cbn [length]; try lia.
  - constructor; cbn [grow r_nord r_simp r_idx set_struct]; rewrite ?app_length; cbn [length].
    + apply (pi_keys r P).
    + intros s k0 i. rewrite Hi, (pinv_at r s k0 i P). split; [|tauto]. intros H. split; [|exact H].
      apply (pinv_at r s k0 i P), (pinv_pos_lt r s k0 i P) in H. fold k. lia.
    + intros k0 Hk0. rewrite Hi. apply (pi_stale r P). fold k. lia.
    + pose proof (pi_len r P). fold k in H. lia.
  - intros j Hj. unfold shape_k, bndk, bask. rewrite !Hi. cbn [grow r_bnd r_bas set_struct].
    rewrite (nth_snoc (r_bnd r)), (nth_snoc (r_bas r)), Lb, Ls. fold k. destruct (Nat.ltb_spec j k) as [Hlt|Hge]; [apply (Sh j Hlt)|].
    assert (j = k) by lia. subst j. rewrite Nat.eqb_refl, Hz, nth_app_snoc_nil. fold (idxk r 0).
    split; [apply dims_zeros|]. intros H1. destruct k as [|k']; [lia|].
    rewrite nth_app_snoc_nil. fold (idxk r k'). rewrite Nat.sub_1_r. apply dims_zeros.
Qed.

Lemma grow_queries r s : sinv r ->
  faces (grow r (r_nord r)) s = faces r s /\ basisOf (grow r (r_nord r)) s = basisOf r s.
Proof.
  intros [P Lb Ls Sh]. unfold faces, basisOf, idxk, bndk, bask.
  cbn [grow r_simp r_idx r_bnd r_bas set_struct].
  destruct (assoc s (r_simp r)) as [[k i]|] eqn:A; [|split; reflexivity].
  apply (pinv_pos_lt r s k i P) in A. destruct k; rewrite !nth_app_snoc_nil, !app_nth1 by lia; split; reflexivity.
Qed.

Lemma pad_bndk r k j : length (r_bnd r) = r_nord r ->
  bndk (pad r k) j = if (j =? S k) && (S k <? r_nord r) then app_zero_row (bndk r (S k)) else bndk r j.
Proof.
  intros Lb. unfold bndk, pad. cbn [r_bnd set_struct]. destruct (S k <? r_nord r) eqn:E; [|now rewrite andb_false_r].
  rewrite nth_upd_nth, Lb, E. now rewrite !andb_true_r.
Qed.

(* adding a simplex of an order that exists *)
Section AddHere.
  Variables (r : rep) (fs : list name) (n : name) (h : handle) (k : nat).
  Hypothesis HS : sinv r.
  Hypothesis Hk : k < r_nord r.
  Let r' := add_final (pad r k) fs n h k.

  Lemma here_idxk j : idxk r' j = if j =? k then idxk r k ++ [n] else idxk r j.
  Proof.
    unfold r'. rewrite add_final_idxk; [reflexivity|].
    cbn [pad r_idx set_struct]. pose proof (pi_len r (s_p r HS)). lia.
  Qed.

  Lemma here_simp : r_simp r' = r_simp r ++ [(n, (k, length (idxk r k)))].
  Proof.
    unfold r'. rewrite add_final_simp; [reflexivity|].
    cbn [pad r_idx set_struct]. pose proof (pi_len r (s_p r HS)). lia.
  Qed.

  Lemma here_lens : r_nord r' = r_nord r /\ length (r_bnd r') = r_nord r /\ length (r_bas r') = r_nord r.
  Proof.
    pose proof (s_lb r HS) as Lb. pose proof (s_ls r HS) as Ls. unfold r', pad.
    destruct k; cbn [add_final r_nord r_bnd r_bas set_struct]; destruct (_ <? r_nord r);
      rewrite ?length_set_nth, ?length_upd_nth, ?map_length, ?combine_length, ?seq_length; repeat split; lia.
  Qed.

  Lemma here_bndk j : bndk r' j =
    if (j =? k) && (0 <? k) then app_col (bndk r k) (mark (idxk r (k - 1)) fs)
    else if (j =? S k) && (S k <? r_nord r) then app_zero_row (bndk r (S k)) else bndk r j.
  Proof.
    pose proof (s_lb r HS) as Lb. rewrite <- pad_bndk by exact Lb. unfold r'. destruct k as [|k']; [now rewrite andb_false_r|].
    rewrite andb_true_r, Nat.sub_1_r. unfold bndk at 1. cbn [add_final r_bnd pred].
    rewrite nth_upd_nth. fold (bndk (pad r (S k')) (S k')). rewrite (pad_bndk r (S k') (S k') Lb), (eqb_false (S k')) by lia.
    replace (length (r_bnd (pad r (S k')))) with (r_nord r).
    - now rewrite (ltb_true (S k')), andb_true_r by exact Hk.
    - unfold pad. cbn [r_bnd set_struct]. destruct (_ <? _); now rewrite ?length_upd_nth.
  Qed.

  (* a point adds a row to every basis matrix and its own column to the first; a higher simplex
     adds the column that marks its basis *)
  Lemma here_bask j : j < r_nord r -> bask r' j =
    match k with
    | 0 => if j =? 0 then app_col (app_zero_row (bask r 0)) (repeat false (length (idxk r 0)) ++ [true])
           else app_zero_row (bask r j)
    | S _ => if j =? k then app_col (bask r k) (mark (idxk r 0) (flat_map (basisOf r) fs)) else bask r j
    end.
  Proof.
    intros Hj. pose proof (s_ls r HS) as Ls. unfold r', bask at 1. destruct k as [|k']; cbn [add_final pad r_bas r_nord r_idx set_struct].
    - set (bas1 := if 1 <? r_nord r then _ else r_bas r).
      assert (Hb1 : forall j, j < r_nord r -> nth j bas1 emptymat = if 0 <? j then app_zero_row (bask r j) else bask r j).
      { intros j0 Hj0. unfold bas1. destruct (Nat.ltb_spec 1 (r_nord r)).
        - rewrite (nth_map_in _ (0, emptymat)), nth_combine_seq by (rewrite ?combine_length, ?seq_length; lia).
          cbn [fst snd Nat.add]. now rewrite (ltb_true j0), andb_true_r by exact Hj0.
        - now replace j0 with 0 by lia. }
      assert (Hl1 : length bas1 = r_nord r).
      { unfold bas1. destruct (1 <? r_nord r); rewrite ?map_length, ?combine_length, ?seq_length; lia. }
      rewrite nth_set_nth, Hl1, (ltb_true 0), andb_true_r by exact Hk.
      destruct (Nat.eqb_spec j 0) as [->|]; [|now rewrite Hb1, ltb_true by lia].
      rewrite Hb1 by exact Hk. cbn [Nat.ltb Nat.leb]. fold (bask r 0).
      destruct (sinv_bas_dims r 0 HS Hk) as (_ & Hr & Hc). rewrite nth_upd_nth_same by (pose proof (pi_len r (s_p r HS)); lia).
      fold (idxk r 0). rewrite app_length, Nat.add_sub.
      destruct (Nat.eqb_spec (nrows (bask r 0)) 0) as [E|]; [|reflexivity].
      unfold app_col, app_zero_row, ncols in *. cbn [nrows mcols]. rewrite <- Hr, E in *.
      apply length_zero_iff_nil in Hc. now rewrite Hc.
    - unfold idxk at 1. cbn [r_idx]. rewrite nth_upd_nth, Ls, (ltb_true (S k')), andb_true_r by exact Hk.
      replace (flat_map (basisOf (pad r (S k'))) fs) with (flat_map (basisOf r) fs); reflexivity.
  Qed.

  Lemma here_sinv : pinv r' -> sinv r'.
  Proof.
    intros HP. destruct here_lens as (Hn & Hlb & Hls).
    assert (Hlen : forall j, length (idxk r' j) = if j =? k then S (length (idxk r k)) else length (idxk r j)).
    { intros j. rewrite here_idxk. destruct (j =? k); [rewrite app_length; simpl; lia | reflexivity]. }
    constructor; [exact HP | congruence | congruence |]. rewrite Hn. intros j Hj. split.
    - rewrite here_bask, !Hlen by exact Hj. pose proof (sinv_bas_dims r j HS Hj) as D.
      destruct k as [|k'].
      + cbn [Nat.eqb]. destruct (Nat.eqb_spec j 0) as [->|]; [|now apply dims_app_zero_row].
        apply dims_app_col; [now apply dims_app_zero_row|]. rewrite app_length, repeat_length. simpl. lia.
      + cbn [Nat.eqb]. destruct (Nat.eqb_spec j (S k')) as [->|]; [|exact D].
        apply dims_app_col; [exact D | apply length_mark].
    - intros H1. rewrite here_bndk, !Hlen. destruct j as [|j']; [lia|]. rewrite !Nat.sub_1_r. cbn [Nat.pred].
      pose proof (sinv_bnd_dims r j' HS Hj) as D.
      destruct (Nat.eqb_spec (S j') k) as [<-|]; [|destruct (Nat.eqb_spec (S j') (S k)) as [E|]].
      + cbn [Nat.ltb Nat.leb andb Nat.pred]. rewrite (eqb_false j') by lia.
        apply dims_app_col; [exact D | apply length_mark].
      + injection E as ->. rewrite Nat.eqb_refl, (ltb_true (S k)) by lia. cbn [andb]. now apply dims_app_zero_row.
      + cbn [andb]. now rewrite (eqb_false j') by lia.
  Qed.
End AddHere.

(* an order that is new is first appended empty: every accepted add is an add at an order that exists *)
Lemma add_struct_wlog r k : sinv r -> k <= r_nord r ->
  exists rg, add_struct r k = pad rg k /\ sinv rg /\ k < r_nord rg /\ r_simp rg = r_simp r /\
    forall s, faces rg s = faces r s /\ basisOf rg s = basisOf r s.
Proof.
  intros HS Hk. rewrite add_struct_steps. destruct (Nat.leb_spec (r_nord r) k).
  - assert (k = r_nord r) by lia. subst k. exists (grow r (r_nord r)).
    split; [reflexivity|]. split; [now apply grow_sinv|]. split; [cbn; lia|]. split; [reflexivity|]. intros s. now apply grow_queries.
  - exists r. split; [reflexivity|]. split; [exact HS|]. split; [assumption|]. split; [reflexivity|]. intros s. split; reflexivity.
Qed.

Theorem addSimplex_sinv r fs id attr r' x : sinv r -> addSimplex r fs id attr = (r', x) -> sinv r'.
Proof.
  revert r fs id attr r' x. apply (addSimplex_lift sinv sinv_same_obs). intros r fs id attr r' n HS H.
  assert (HP : pinv r') by (eapply addSimplex_pinv; [apply (s_p r HS) | exact H]).
  apply addSimplex_eq in H. destruct H as (r2 & h & Hs & Hk & ->).
  apply (sinv_same_obs _ _ Hs) in HS.
  destruct (add_struct_wlog r2 _ HS Hk) as (rg & E & HSg & Hkg & _). rewrite E in *. now apply here_sinv.
Qed.

(* the same two terms for an order S k', without the case distinction on the order *)
Definition add_struct_hi (r2 : rep) (k k' : nat) : rep :=
  let rg := if r_nord r2 <=? k
            then let idx' := r_idx r2 ++ [[]] in
                 set_struct r2 (S k) idx' (r_bnd r2 ++ [zeros (length (nth k' idx' [])) 0])
                            (r_bas r2 ++ [zeros (length (nth 0 idx' [])) 0])
            else r2 in
  if S k <? r_nord rg
  then set_struct rg (r_nord rg) (r_idx rg) (upd_nth (S k) app_zero_row emptymat (r_bnd rg)) (r_bas rg)
  else rg.
Definition add_final_hi (r : rep) (fs : list name) (id : name) (h : handle) (k k' : nat) : rep :=
  let bs := flat_map (basisOf r) fs in
  let idx' := upd_nth k (fun l => l ++ [id]) [] (r_idx r) in
  let si := length (nth k idx' []) - 1 in
  mkRep (r_uid r) (r_nord r) (r_simp r ++ [(id, (k, si))]) idx'
        (upd_nth k (fun m => app_col m (mark (idxk r k') fs)) emptymat (r_bnd r))
        (upd_nth k (fun m => app_col m (mark (idxk r 0) bs)) emptymat (r_bas r))
        (r_attr r ++ [(id, h)]) (r_seq r) (r_nalloc r).
Lemma add_hi_eq r2 fs id h k' :
  add_final (add_struct r2 (S k')) fs id h (S k') = add_final_hi (add_struct_hi r2 (S k') k') fs id h (S k') k'.
Proof. reflexivity. Qed.

Lemma rstep_sinv r o : sinv r -> sinv (rstep r o).
Proof.
  intros H. destruct o; simpl.
  - destruct (addSimplex r fs id attr) eqn:E. eapply addSimplex_sinv; eauto.
  - destruct (relabelSimplex r s q) eqn:E. eapply relabelSimplex_sinv; eauto.
  - destruct (forceDeleteSimplex r s) eqn:E. eapply forceDeleteSimplex_sinv; eauto.
Qed.

Theorem reachable_sinv uid ops : sinv (fold_left rstep ops (empty_rep uid)).
Proof.
  apply fold_left_keeps; [intros r o _; apply rstep_sinv | apply sinv_empty].
Qed.

Theorem boundary_shape r k : sinv r -> k < r_nord r ->
  ncols (boundaryOperator r k) = length (simplicesOfOrder r k) /\
  (1 <= k -> nrows (boundaryOperator r k) = length (simplicesOfOrder r (k - 1))).
Proof.
  intros HS Hk. unfold boundaryOperator. rewrite !simplicesOfOrder_idxk by apply HS.
  destruct k as [|k']; cbn [Nat.eqb].
  - split; [apply repeat_length | lia].
  - rewrite leb_false, Nat.sub_1_r by lia. destruct (sinv_bnd_dims r k' HS Hk) as (_ & Hr & Hc). auto.
Qed.

Theorem boundary_ncols r k : sinv r -> ncols (boundaryOperator r k) = length (simplicesOfOrder r k).
Proof.
  intros H. destruct (Nat.ltb_spec k (r_nord r)) as [Hk|Hk]; [now apply boundary_shape|].
  unfold boundaryOperator. destruct k; cbn [Nat.eqb]; [apply repeat_length|].
  now rewrite leb_true, simplicesOfOrder_above by lia.
Qed.

Theorem simplicesOfOrder_nodup r k : pinv r -> NoDup (simplicesOfOrder r k).
Proof.
  intros P. rewrite simplicesOfOrder_idxk by exact P. now apply pinv_nodup_order.
Qed.
