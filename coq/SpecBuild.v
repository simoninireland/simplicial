(* SpecBuild.v -- the complexes `build c` of the sweeps satisfy the invariants the general theorems
   ask for.  `build` is a history of public operations (points, then maximal simplices by basis), so
   the top-order invariant holds of it whatever c is; the vertex-set reading is kept by an add by
   basis that succeeds, and that every add of every enumerated complex does succeed is the one fact
   left to evaluation.  Plain Coq. *)
From Coq Require Import String ZArith Bool Arith List Lia.
From SV Require Import Names NamesFacts ListFacts Rep Complex Closed ClosedReach FlagExt VInv AwbSpec VReach TopOrder Small Sweeps.
Import ListNotations.
Open Scope nat_scope.

Fixpoint passes {A} (f : rep -> A -> rep) (ok : rep -> A -> bool) (l : list A) (r : rep) : bool :=
  match l with [] => true | a :: t => ok r a && passes f ok t (f r a) end.

Lemma fold_left_passes {A} (I : rep -> Prop) (f : rep -> A -> rep) ok :
  (forall r a, I r -> ok r a = true -> I (f r a)) -> forall l r, I r -> passes f ok l r = true -> I (fold_left f l r).
Proof.
  intros Hf. induction l as [|a l IH]; intros r Hr H; [exact Hr|].
  apply andb_prop in H. destruct H as [Ha Hl]. exact (IH _ (Hf r a Hr Ha) Hl).
Qed.

Definition add_point (r : rep) (p : nat) : rep := fst (addSimplex r [] (Some (pt p)) None).
Definition add_facet (r : rep) (f : list nat) : rep :=
  if length f <=? 1 then r else fst (c_addSimplexWithBasis r (map pt f) None None).
Definition points_rep_of (facets : list (list nat)) : rep := fold_left add_point (points_of facets) (empty_rep 1).

Lemma build_steps facets : build facets = fold_left add_facet facets (points_rep_of facets).
Proof. reflexivity. Qed.

Lemma add_facet_tcinv r f : tcinv r -> tcinv (add_facet r f).
Proof.
  intros H. unfold add_facet. destruct (length f <=? 1); [exact H|]. exact (pstep_tcinv r (PAddB (map pt f) None None) H).
Qed.

Theorem build_tcinv facets : tcinv (build facets).
Proof.
  rewrite build_steps. apply (fold_left_keeps _ tcinv); [intros r f _; apply add_facet_tcinv|].
  apply (fold_left_keeps _ tcinv); [|apply tcinv_empty]. intros r p _. exact (pstep_tcinv r (PAdd [] (Some (pt p)) None)).
Qed.

Definition facet_ok (r : rep) (f : list nat) : bool :=
  (length f <=? 1) ||
  nodupb (map pt f) && match snd (c_addSimplexWithBasis r (map pt f) None None) with Ok _ => true | Raise _ => false end.
Definition build_ok (facets : list (list nat)) : bool := passes add_facet facet_ok facets (points_rep_of facets).

Lemma add_facet_vinv r f : vinv r -> facet_ok r f = true -> vinv (add_facet r f).
Proof.
  intros Hv H. unfold add_facet, facet_ok in *. destruct (Nat.leb_spec (length f) 1) as [|Hl]; [exact Hv|].
  apply andb_prop in H. destruct H as [Hnd Hok]. apply nodupb_NoDup in Hnd.
  destruct (c_addSimplexWithBasis r (map pt f) None None) as [r' [n|e]] eqn:E; [|discriminate].
  apply (addSimplexWithBasis_spec r (map pt f) None None r' n Hv Hnd); [rewrite map_length; lia | exact E].
Qed.

Theorem build_vinv facets : build_ok facets = true -> vinv (build facets).
Proof.
  rewrite build_steps. apply (fold_left_passes vinv); [exact add_facet_vinv|].
  apply (fold_left_keeps _ vinv); [|apply vinv_empty]. intros r p _. exact (vstep_vinv r (VPoint (Some (pt p)) None)).
Qed.

Lemma sweep_build_ok : forallb build_ok (complexes3 ++ complexes4) = true.
Proof. vm_compute. reflexivity. Qed.

Lemma build_invariants c : In c (complexes3 ++ complexes4) -> vinv (build c) /\ topinv (build c).
Proof. intros H. split; [exact (build_vinv c (lift _ _ sweep_build_ok c H)) | exact (t_t _ (build_tcinv c))]. Qed.

Theorem build_invariants4 : forall c, In c complexes4 -> vinv (build c) /\ topinv (build c).
Proof. intros c H. apply build_invariants, in_or_app. now right. Qed.
Theorem build_invariants3 : forall c, In c complexes3 -> vinv (build c) /\ topinv (build c).
Proof. intros c H. apply build_invariants, in_or_app. now left. Qed.
