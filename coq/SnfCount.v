(* SnfCount.v -- counting zero columns / non-zero rows of a matrix in partial-identity form
   (what bettiNumbers and Z do with a Smith normal form).  Plain Coq. *)
From Coq Require Import String ZArith Bool Arith List Lia.
From SV Require Import ListFacts Rep Homology ListMat.
Import ListNotations.
Open Scope nat_scope.

Definition pidform (nr nc r : nat) (D : bmat) : Prop :=
  wfm nr nc D /\ r <= nr /\ r <= nc /\
  forall i j, i < nr -> j < nc -> entry D i j = (i =? j) && (i <? r).

Lemma block_pidform nr nc r D : wfm nr nc D -> r <= nr -> r <= nc -> block nr nc r (entry D) ->
  (forall i j, i < nr -> j < nc -> r <= i -> r <= j -> entry D i j = false) -> pidform nr nc r D.
Proof.
  intros HM Hr Hc Hb Hz. split; [exact HM|]. split; [exact Hr|]. split; [exact Hc|]. intros i j Hi Hj.
  destruct (Nat.ltb_spec i r) as [Hir|Hir]; [rewrite andb_true_r; apply Hb; auto|].
  rewrite andb_false_r. destruct (Nat.lt_ge_cases j r) as [Hjr|Hjr]; [|now apply Hz].
  rewrite Hb by auto. apply Nat.eqb_neq. lia.
Qed.

Lemma filter_ext_in' {A} (p q : A -> bool) l : (forall x, In x l -> p x = q x) -> filter p l = filter q l.
Proof. apply filter_ext_in. Qed.

Lemma filter_seq_cut p n r : r <= n -> filter p (seq 0 n) = filter p (seq 0 r) ++ filter p (seq r (n - r)).
Proof. intros H. rewrite <- filter_app, <- seq_app. do 2 f_equal. lia. Qed.

Lemma count_from p n r : r <= n -> (forall j, j < r -> p j = false) -> (forall j, r <= j < n -> p j = true) ->
  length (filter p (seq 0 n)) = n - r.
Proof.
  intros Hr H0 H1. rewrite (filter_seq_cut p n r Hr), filter_none, filter_all.
  - apply seq_length.
  - intros j Hj. apply in_seq in Hj. apply H1. lia.
  - intros j Hj. apply in_seq in Hj. apply H0. lia.
Qed.

Lemma count_upto p n r : r <= n -> (forall j, j < r -> p j = true) -> (forall j, r <= j < n -> p j = false) ->
  length (filter p (seq 0 n)) = r.
Proof.
  intros Hr H1 H0. rewrite (filter_seq_cut p n r Hr), filter_all, filter_none.
  - rewrite app_nil_r. apply seq_length.
  - intros j Hj. apply in_seq in Hj. apply H0. lia.
  - intros j Hj. apply in_seq in Hj. apply H1. lia.
Qed.

Lemma filter_seq_shift (q : nat -> bool) n s :
  length (filter q (seq (S s) n)) = length (filter (fun i => q (S i)) (seq s n)).
Proof.
  revert s; induction n as [|n IH]; intros s; simpl; auto.
  destruct (q (S s)); simpl; rewrite IH; auto.
Qed.

Lemma filter_by_index {A} (d : A) (p : A -> bool) l :
  length (filter p l) = length (filter (fun i => p (nth i l d)) (seq 0 (length l))).
Proof.
  induction l as [|h t IH]; simpl; auto.
  destruct (p h); simpl; rewrite filter_seq_shift; simpl; rewrite IH; reflexivity.
Qed.

Lemma col_is_zero_true M j : col_is_zero M j = true <-> forall i, i < length M -> entry M i j = false.
Proof.
  unfold col_is_zero. rewrite forallb_forall. split.
  - intros H i Hi. apply negb_true_iff, H, nth_In, Hi.
  - intros H r Hr. destruct (In_nth _ _ [] Hr) as (i & Hi & <-). apply negb_true_iff, H, Hi.
Qed.

Lemma row_nonzero_true (row : list bool) :
  existsb (fun b => b) row = true <-> exists j, j < length row /\ nth j row false = true.
Proof.
  rewrite existsb_exists. split.
  - intros (b & Hin & ->). destruct (In_nth _ _ false Hin) as (j & Hj & Hn). eauto.
  - intros (j & Hj & Hn). exists true. split; [rewrite <- Hn; now apply nth_In | reflexivity].
Qed.

Lemma kernelDim_pid nr nc r D : pidform nr nc r D -> kernelDim (nr, nc, D) = nc - r.
Proof.
  intros (HM & Hr1 & Hr2 & He). apply count_from; [exact Hr2| |].
  - intros j Hj. apply not_true_iff_false. rewrite col_is_zero_true, (proj1 HM). intros H.
    specialize (H j ltac:(lia)). rewrite He, Nat.eqb_refl in H by lia.
    apply Nat.ltb_lt in Hj. now rewrite Hj in H.
  - intros j Hj. apply col_is_zero_true. rewrite (proj1 HM). intros i Hi. rewrite He by lia.
    destruct (Nat.eqb_spec i j) as [->|]; [|reflexivity]. apply Nat.ltb_ge. lia.
Qed.

Lemma imageDim_pid nr nc r D : pidform nr nc r D -> imageDim (nr, nc, D) = r.
Proof.
  intros (HM & Hr1 & Hr2 & He). unfold imageDim. rewrite (filter_by_index []), (proj1 HM).
  apply count_upto; [exact Hr1| |].
  - intros i Hi. apply row_nonzero_true. exists i. rewrite (wfm_row nr nc _ _ HM) by lia. split; [lia|].
    fold (entry D i i). rewrite He, Nat.eqb_refl by lia. now apply Nat.ltb_lt.
  - intros i Hi. apply not_true_iff_false. rewrite row_nonzero_true, (wfm_row nr nc _ _ HM) by lia.
    intros (j & Hj & Hn). fold (entry D i j) in Hn. rewrite He in Hn by lia.
    rewrite (proj2 (Nat.ltb_ge i r)), andb_false_r in Hn by lia. discriminate.
Qed.

Lemma wfm_rows_of (m : mat) : wfm (nrows m) (ncols m) (rows_of m).
Proof.
  apply wfm_rows; unfold rows_of; [now rewrite map_length, seq_length|].
  intros i Hi. rewrite (nth_map_in _ 0) by (now rewrite seq_length). apply map_length.
Qed.

Lemma entry_rows_of (m : mat) i j : i < nrows m -> entry (rows_of m) i j = nth i (nth j (mcols m) []) false.
Proof.
  intros Hi. unfold entry, rows_of. rewrite (nth_map_in _ 0) by (now rewrite seq_length).
  rewrite seq_nth by exact Hi. unfold getrow. simpl.
  destruct (Nat.lt_ge_cases j (length (mcols m))) as [Hj|Hj]; [now rewrite (nth_map_in _ [])|].
  rewrite (nth_overflow (map _ _)), (nth_overflow (mcols m)) by (now rewrite ?map_length). now destruct i.
Qed.

Lemma entry_zeros a b i j : entry (rows_of (zeros a b)) i j = false.
Proof.
  destruct (Nat.lt_ge_cases i a) as [Hi|Hi].
  - rewrite entry_rows_of by exact Hi. simpl.
    destruct (nth_in_or_default j (repeat (repeat false a) b) []) as [H| ->]; [|now destruct i].
    apply repeat_spec in H. rewrite H. apply nth_repeat.
  - unfold entry, rows_of. rewrite (nth_overflow (map _ _)); [now destruct j|]. now rewrite map_length, seq_length.
Qed.
