(* BulkRenamed.v -- C15 / C02: addSimplicesFrom under a renaming phi (a dict or a function, called once per simplex and
   remembered) inserts a copy of the source along phi: every source simplex s arrives as phi(s) with its order, with faces
   phi(faces of s) and with a dictionary of the receiver's own holding what the source's dictionary holds; the receiver's
   own simplices keep name, order, position, faces and points; membership = old + phi(source); the list returned is
   phi of the source's listing.  phi is the final memo: "the name the renaming gave s, s itself if it was never asked".
   Plain Coq. *)
From Coq Require Import String ZArith Bool Arith List Lia.
From SV Require Import Names NamesFacts ListFacts Rep Fresh Complex Atomic RepInv Shapes AddEffect CopyFaithful
                       RelabelProofs RelabelAll RelabelPhi WorldProofs CopyAttrs.
Import ListNotations.
Open Scope nat_scope.

Definition grows (st st' : rl) : Prop := forall x v, assoc x (rl_memo st) = Some v -> assoc x (rl_memo st') = Some v.
Lemma grows_refl st : grows st st. Proof. intros x v H; exact H. Qed.
Lemma grows_trans a b c : grows a b -> grows b c -> grows a c. Proof. intros H1 H2 x v H. auto. Qed.

Lemma memo_of_grows st st' x v : grows st st' -> assoc x (rl_memo st) = Some v -> memo_of st' x = v.
Proof. intros G A. unfold memo_of. now rewrite (G x v A). Qed.

Lemma rl_map_memo rn : rn <> RNone -> forall l st st2 l', rl_map rn st l = (st2, l') ->
  grows st st2 /\ (forall x, In x l -> exists v, assoc x (rl_memo st2) = Some v) /\ l' = map (memo_of st2) l.
Proof.
  intros Hn. induction l as [|x l IH]; intros st st2 l' H; simpl in H.
  - injection H as <- <-. split; [apply grows_refl|]. split; [intros x []|reflexivity].
  - destruct (rl_apply rn st x) as [st1 y] eqn:E1. destruct (rl_map rn st1 l) as [st3 ys] eqn:E2. injection H as <- <-.
    destruct (rl_apply_memo rn st x st1 y Hn E1) as [A1 G1]. destruct (IH st1 st3 ys E2) as (G2 & M2 & ->).
    split; [eapply grows_trans; eauto|]. split.
    + intros z [<-|Hz]; [exists y; now apply G2|now apply M2].
    + simpl. f_equal. symmetry. now apply (memo_of_grows st1 st3 x y G2).
Qed.

(* an accepted bulk add under a renaming is the plain bulk add of the renamed view: names and faces
   as the final memo gives them, the source's cells *)
Definition rename_entry (phi : name -> name) (e : name * (list name * handle)) : name * (list name * handle) :=
  (phi (fst e), (map phi (fst (snd e)), snd (snd e))).

Lemma addFrom_loop_renamed rn : rn <> RNone -> forall (src : srcview) hp r st ns hp' r' st' ns',
  addFrom_loop hp r rn st src ns = (hp', r', st', Ok ns') ->
  grows st st' /\
  forall st0, addFrom_loop hp r RNone st0 (map (rename_entry (memo_of st')) src) ns = (hp', r', st0, Ok ns').
Proof.
  intros Hn. induction src as [|[s [fs h]] rest IH]; intros hp r st ns hp' r' st' ns' H; cbn [addFrom_loop] in H.
  - injection H as <- <- <- <-. split; [apply grows_refl|reflexivity].
  - destruct (rl_apply rn st s) as [st1 t] eqn:E1.
    destruct (negb (name_eqb s t) && containsSimplex r t); [discriminate|].
    destruct (rl_map rn st1 fs) as [st2 fs'] eqn:E2.
    destruct (rl_apply_memo rn st s st1 t Hn E1) as [A1 G1].
    destruct (rl_map_memo rn Hn fs st1 st2 fs' E2) as (G2 & M2 & ->).
    destruct (alloc r) as [r1 h'] eqn:Ea.
    destruct (addSimplex r1 _ (Some t) (Some h')) as [r2 [id|e]] eqn:E; [|discriminate].
    destruct (IH _ _ _ _ _ _ _ _ H) as [G3 R].
    split; [exact (grows_trans _ _ _ G1 (grows_trans _ _ _ G2 G3))|]. intros st0.
    cbn [map]. unfold rename_entry at 1. cbn [fst snd]. rewrite addFrom_loop_RNone_cons, Ea.
    (* the names given in this round are the names the final memo gives *)
    rewrite (memo_of_grows st1 st' s t (grows_trans _ _ _ G2 G3) A1).
    replace (map (memo_of st') fs) with (map (memo_of st2) fs).
    + rewrite E. apply R.
    + apply map_ext_in. intros x Hx. destruct (M2 x Hx) as (v & Av).
      rewrite (memo_of_grows st2 st' x v G3 Av). unfold memo_of. now rewrite Av.
Qed.

Lemma addFrom_loop_names : forall (src : srcview) hp r st ns hp' r' st' ns',
  addFrom_loop hp r RNone st src ns = (hp', r', st', Ok ns') -> ns' = ns ++ map fst src.
Proof.
  induction src as [|[s [fs h]] rest IH]; intros hp r st ns hp' r' st' ns' H.
  - injection H as _ _ _ <-. now rewrite app_nil_r.
  - rewrite addFrom_loop_RNone_cons in H. destruct (alloc r) as [r1 h'].
    destruct (addSimplex r1 fs (Some s) (Some h')) as [r2 [id|e]] eqn:E; [|discriminate].
    destruct (addSimplex_given _ _ _ _ _ _ E) as (-> & _).
    rewrite (IH _ _ _ _ _ _ _ _ H), <- app_assoc. reflexivity.
Qed.

Theorem bulk_add_renamed rn : rn <> RNone -> forall (src : srcview) hp r st ns hp' r' st' ns',
  sinv r -> addFrom_loop hp r rn st src ns = (hp', r', st', Ok ns') ->
  let phi := memo_of st' in
  sinv r' /\ grows st st' /\
  (forall s fs h, In (s, (fs, h)) src ->
     containsSimplex r' (phi s) = true /\ orderOf r' (phi s) = Ok (length fs - 1) /\
     (forall t, In t (faces r' (phi s)) <-> In t (map phi fs))) /\
  (forall s, containsSimplex r s = true ->
     containsSimplex r' s = true /\ orderOf r' s = orderOf r s /\ indexOf r' s = indexOf r s /\
     faces r' s = faces r s /\ basisOf r' s = basisOf r s) /\
  (forall s, containsSimplex r' s = containsSimplex r s || memn s (map phi (map fst src))) /\
  ns' = ns ++ map phi (map fst src).
Proof.
  intros Hn src hp r st ns hp' r' st' ns' Hinv H phi.
  destruct (addFrom_loop_renamed rn Hn _ _ _ _ _ _ _ _ _ H) as [G R]. specialize (R st). fold phi in R.
  destruct (bulk_add_faithful _ _ _ _ _ _ _ _ _ Hinv R) as (Hinv' & Hsrc & Hkeep & Hcont).
  split; [exact Hinv'|]. split; [exact G|]. split; [|split; [exact Hkeep|split]].
  - intros s fs h Hin. apply (in_map (rename_entry phi)) in Hin.
    destruct (Hsrc _ _ _ Hin) as (C & O & F). rewrite map_length in O. auto.
  - intros s. rewrite Hcont, !map_map. reflexivity.
  - rewrite (addFrom_loop_names _ _ _ _ _ _ _ _ _ R), !map_map. reflexivity.
Qed.
