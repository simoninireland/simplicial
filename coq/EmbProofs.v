(* EmbProofs.v -- the embedding cache as a state machine (C20).  Plain Coq. *)
From Coq Require Import String ZArith Bool Arith List Lia.
From SV Require Import Names NamesFacts Rep Complex Homology Filtration Gen World.
Import ListNotations.
Open Scope nat_scope.

Lemma positionSimplex_wrong_dim e s p : length p <> e_dim e -> emb_positionSimplex e s p = Raise ValueError.
Proof. intros H. unfold emb_positionSimplex. apply Nat.eqb_neq in H. now rewrite H. Qed.

Lemma positionSimplex_pos e s p e' : emb_positionSimplex e s p = Ok e' -> e_pos e' = assoc_set s p (e_pos e).
Proof. unfold emb_positionSimplex. destruct (negb (length p =? e_dim e)); [discriminate|]. now intros [= <-]. Qed.

Lemma assign_then_read e s p e' :
  emb_positionSimplex e s p = Ok e' -> emb_read (Ok 0) e' s = (e', Ok p).
Proof. intros H. unfold emb_read. now rewrite (positionSimplex_pos _ _ _ _ H), assoc_set_same. Qed.

Lemma read_preserves_others ord e s t : t <> s -> assoc t (e_pos (fst (emb_read ord e s))) = assoc t (e_pos e).
Proof.
  intros Hne. unfold emb_read. destruct ord as [[|k]|x]; simpl; auto.
  destruct (assoc s (e_pos e)); simpl; auto. rewrite assoc_app. destruct (assoc t (e_pos e)); auto.
  simpl. now rewrite (name_eqb_neq t s).
Qed.

Lemma read_preserves_present ord e s t p :
  assoc t (e_pos e) = Some p -> assoc t (e_pos (fst (emb_read ord e s))) = Some p.
Proof.
  intros H. unfold emb_read. destruct ord as [[|k]|x]; simpl; auto.
  destruct (assoc s (e_pos e)); simpl; auto. rewrite assoc_app. now rewrite H.
Qed.

Lemma assign_preserves_others e s p e' t :
  emb_positionSimplex e s p = Ok e' -> t <> s -> assoc t (e_pos e') = assoc t (e_pos e).
Proof. intros H Hne. rewrite (positionSimplex_pos _ _ _ _ H). now apply assoc_set_other. Qed.

Fixpoint reads (ord : name -> res nat) (e : emb) (ss : list name) : emb :=
  match ss with [] => e | s :: t => reads ord (fst (emb_read (ord s) e s)) t end.

Theorem precedence e s p e' ord ss :
  emb_positionSimplex e s p = Ok e' -> ord s = Ok 0 ->
  emb_read (ord s) (reads ord e' ss) s = (reads ord e' ss, Ok p).
Proof.
  intros Ha Ho. assert (H : assoc s (e_pos (reads ord e' ss)) = Some p).
  { assert (H0 : assoc s (e_pos e') = Some p) by (rewrite (positionSimplex_pos _ _ _ _ Ha); apply assoc_set_same).
    clear Ha. revert e' H0. induction ss as [|x t IH]; intros e' H0; simpl; auto.
    apply IH. now apply read_preserves_present. }
  rewrite Ho. unfold emb_read. now rewrite H.
Qed.

(* computed positions are computed once and then cached: a second read does not call
   computePositionOf again and returns the same position *)
Theorem computed_once e s :
  let '(e1, p1) := emb_read (Ok 0) e s in
  let '(e2, p2) := emb_read (Ok 0) e1 s in
  p2 = p1 /\ e2 = e1 /\ (assoc s (e_pos e) = None -> e_calls e1 = e_calls e ++ [s]) /\
  (assoc s (e_pos e) <> None -> e_calls e1 = e_calls e).
Proof.
  unfold emb_read. destruct (assoc s (e_pos e)) as [p|] eqn:A.
  - rewrite A. repeat split; auto. congruence.
  - simpl. rewrite assoc_app, A. simpl. rewrite name_eqb_refl. repeat split; auto. congruence.
Qed.

Lemma read_higher_order e s k : emb_read (Ok (S k)) e s = (e, Raise ValueError).
Proof. reflexivity. Qed.

Lemma clear_forgets e s : assoc s (e_pos (emb_clear e)) = None.
Proof. reflexivity. Qed.

(* computePositionOf of the base class is the origin of the right dimension *)
Lemma computed_is_origin e s : assoc s (e_pos e) = None ->
  snd (emb_read (Ok 0) e s) = Ok (repeat zero_coord (e_dim e)) /\
  length (repeat zero_coord (e_dim e)) = e_dim e.
Proof. intros A. unfold emb_read. rewrite A. simpl. split; auto. apply repeat_length. Qed.
