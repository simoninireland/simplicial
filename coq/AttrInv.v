(* AttrInv.v -- the attribute table of a complex: after every history of public operations every simplex
   has exactly one attribute dictionary and nothing else has one (ainv); a completed relabel() hands each
   simplex's dictionary -- the same object -- to its new name (C15), and touches no dictionary's content
   (relabel does not take the heap).  Plain Coq. *)
From Coq Require Import String ZArith Bool Arith List Lia.
From SV Require Import Names NamesFacts ListFacts Rep Fresh Complex Atomic RepInv Shapes Incidence AddEffect.
From SV Require Import DelEffect DeleteEffect StarOrder Closed ReachGen ClosedReach RelabelProofs RelabelAll RelabelPhi VInv CopyFaithful.
Import ListNotations.
Open Scope nat_scope.

Record ainv (r : rep) : Prop := {
  a_c : cinv r;
  a_nd : NoDup (map fst (r_attr r));
  a_dom : forall s, assoc s (r_attr r) = None <-> containsSimplex r s = false }.

Lemma ainv_sinv r : ainv r -> sinv r.
Proof. intros A. exact (c_s r (a_c r A)). Qed.

Lemma ainv_pinv r : ainv r -> pinv r.
Proof. intros A. exact (s_p r (ainv_sinv r A)). Qed.

Lemma ainv_empty uid : ainv (empty_rep uid).
Proof. split; [apply cinv_empty|constructor|]. intros s. unfold containsSimplex. simpl. tauto. Qed.

Lemma ainv_same_obs r r' : same_obs r r' -> ainv r -> ainv r'.
Proof.
  intros Hs [C N D]. split; [eapply cinv_same_obs; eauto| |].
  - destruct Hs as (_ & _ & _ & _ & _ & _ & Ha). now rewrite Ha.
  - intros s. destruct Hs as (_ & _ & Hsimp & _ & _ & _ & Ha). unfold containsSimplex. rewrite Ha, Hsimp. apply D.
Qed.

Lemma addSimplex_attr_snoc r fs id attr r' n : ainv r -> addSimplex r fs id attr = (r', Ok n) ->
  exists h, r_attr r' = r_attr r ++ [(n, h)] /\ assoc n (r_attr r) = None /\
    (attr = Some h \/ (attr = None /\ fst h = r_uid r)) /\
    forall s, containsSimplex r' s = containsSimplex r s || name_eqb s n.
Proof.
  intros A H. destruct (addSimplex_contains r fs id attr r' n (ainv_pinv r A) H) as [Hnew Hall].
  pose proof (addSimplex_form r fs id attr r' n H) as F. cbv zeta in F.
  destruct F as (r2 & h & Hs & _ & _ & _ & _ & _ & _ & _ & Ha & Hh & _).
  destruct Hs as (_ & _ & _ & _ & _ & _ & Ha2). rewrite Ha2 in Ha.
  exists h. split; [exact Ha|]. split; [now apply (a_dom r A)|]. split; [exact Hh|exact Hall].
Qed.

Theorem addSimplex_ainv r fs id attr r' x : ainv r -> addSimplex r fs id attr = (r', x) -> ainv r'.
Proof.
  intros A H. destruct x as [n|e].
  2: { apply addSimplex_atomic in H. destruct H as [Hs _]. eapply ainv_same_obs; eauto. }
  destruct (addSimplex_attr_snoc r fs id attr r' n A H) as (h & Ha & Hnew & _ & Hall). destruct A as [C N D].
  split; [eapply addSimplex_cinv; eauto| |].
  - rewrite Ha, map_app. apply NoDup_app_snoc; [exact N|]. now apply assoc_none_notin.
  - intros s. rewrite Ha, Hall. destruct (name_eq_dec s n) as [->|Hne].
    + rewrite assoc_new by exact Hnew. rewrite name_eqb_refl, orb_true_r. split; discriminate.
    + rewrite assoc_snoc_other by exact Hne. rewrite (name_eqb_neq s n Hne), orb_false_r. apply D.
Qed.

Lemma relabelSimplex_attr r s q r' : ainv r -> relabelSimplex r s q = (r', Ok tt) ->
  exists h p, assoc s (r_attr r) = Some h /\ assoc q (r_attr r) = None /\ assoc q (r_simp r) = None /\ s <> q /\
    r_attr r' = assoc_del s (r_attr r) ++ [(q, h)] /\ r_simp r' = assoc_del s (r_simp r) ++ [(q, p)].
Proof.
  intros [C N D] H. unfold relabelSimplex in H. destruct (containsSimplex r q) eqn:Cq; [discriminate|].
  destruct (assoc s (r_simp r)) as [[k i]|] eqn:As; [|discriminate]. injection H as <-.
  assert (Cs : containsSimplex r s = true) by exact (assoc_contains r s k i As).
  destruct (assoc s (r_attr r)) as [h|] eqn:Ah.
  2: { apply D in Ah. congruence. }
  exists h, (k, i). split; [reflexivity|]. split; [now apply D|]. split.
  { now apply containsSimplex_false_assoc. }
  split; [intros ->; congruence|]. split; reflexivity.
Qed.

Theorem relabelSimplex_ainv r s q r' x : ainv r -> relabelSimplex r s q = (r', x) -> ainv r'.
Proof.
  intros A H. destruct x as [[]|e].
  2: { apply relabelSimplex_atomic in H. now destruct H as [-> _]. }
  destruct (relabelSimplex_attr r s q r' A H) as (h & p & Ah & Aq & Sq & Hsq & Ea & Es). destruct A as [C N D].
  assert (Ns : NoDup (map fst (r_simp r))) by exact (pi_keys r (s_p r (c_s r C))).
  split; [eapply relabelSimplex_cinv; eauto| |].
  - rewrite Ea, map_app. apply NoDup_app_snoc; [now apply nodup_assoc_del|].
    intros Hin. apply assoc_none_notin in Aq. apply Aq. eapply in_map_fst_assoc_del; eauto.
  - intros t. unfold containsSimplex. rewrite Ea, Es. destruct (name_eq_dec t q) as [->|Htq].
    + rewrite !assoc_new by (rewrite assoc_del_other; auto). split; discriminate.
    + rewrite !assoc_snoc_other by exact Htq. destruct (name_eq_dec t s) as [->|Hts].
      * rewrite !assoc_del_same by assumption. tauto.
      * rewrite !assoc_del_other by exact Hts. apply D.
Qed.

Lemma forceDelete_attr r s r' : sinv r -> forceDeleteSimplex r s = (r', Ok tt) ->
  r_attr r' = assoc_del s (r_attr r) /\
  forall t, containsSimplex r' t = containsSimplex r t && negb (name_eqb t s).
Proof.
  intros S H. destruct (assoc s (r_simp r)) as [[k i]|] eqn:As.
  2: { unfold forceDeleteSimplex in H. rewrite As in H. discriminate. }
  pose proof (forceDelete_membership r s k i S As) as Hmem. rewrite H in Hmem. split; [|exact Hmem].
  unfold forceDeleteSimplex in H. rewrite As in H. destruct (_ && _) in H; injection H as <-; reflexivity.
Qed.

Theorem forceDelete_ainv r s r' x : ainv r -> cofaces r s = [] -> forceDeleteSimplex r s = (r', x) -> ainv r'.
Proof.
  intros [C N D] Hco H. destruct x as [[]|e].
  2: { apply forceDeleteSimplex_atomic in H. destruct H as [-> _]. split; auto. }
  destruct (forceDelete_attr r s r' (c_s r C) H) as [Ea Hmem].
  split; [eapply forceDelete_cinv; eauto| |].
  - rewrite Ea. now apply nodup_assoc_del.
  - intros t. rewrite Ea, Hmem. destruct (name_eqb_spec t s) as [->|Hts].
    + rewrite (assoc_del_same s (r_attr r) N), andb_false_r. tauto.
    + rewrite assoc_del_other by exact Hts. rewrite andb_true_r. apply D.
Qed.

Theorem deleteSimplex_ainv r s r' x : ainv r -> deleteSimplex r s = (r', x) -> ainv r'.
Proof. exact (deleteSimplex_inv ainv ainv_sinv forceDelete_ainv r s r' x). Qed.

Local Hint Resolve ainv_same_obs ainv_empty addSimplex_ainv relabelSimplex_ainv deleteSimplex_ainv : ainv.

Theorem relabel_ainv r rn r' st x : ainv r -> relabel r rn = (r', st, x) -> ainv r'.
Proof. inst relabel_I at ainv with ainv. Qed.

Theorem public_history_ainv uid ops : ainv (fold_left pstep ops (empty_rep uid)).
Proof. inst public_history_I at ainv with ainv. Qed.

Definition attrs_follow (phi : name -> name) (r r' : rep) : Prop :=
  forall s, containsSimplex r s = true -> assoc (phi s) (r_attr r') = assoc s (r_attr r).

Lemma relabelSimplex_follow r s q r' : ainv r -> relabelSimplex r s q = (r', Ok tt) -> attrs_follow (ren1 s q) r r'.
Proof.
  intros A H. destruct (relabelSimplex_attr r s q r' A H) as (h & p & Ah & Aq & _ & Hsq & Ea & _).
  intros t Ct. rewrite Ea. unfold ren1. destruct (name_eqb_spec t s) as [->|Hts].
  - rewrite assoc_new; [now rewrite Ah|]. rewrite assoc_del_other; auto.
  - rewrite assoc_snoc_other; [now apply assoc_del_other|]. intros ->. apply (a_dom r A) in Aq. congruence.
Qed.

Lemma relabel_do_follow rn ss r st mapping r' st' x : ainv r ->
  relabel_do r rn st ss mapping = (r', st', x) ->
  exists phi, renamed_by phi r r' /\ attrs_follow phi r r'.
Proof.
  intros A H.
  apply (relabel_do_inv (fun r1 _ => ainv r1 /\ exists phi, renamed_by phi r r1 /\ attrs_follow phi r r1) rn) in H;
    [tauto|auto| |].
  - intros r1 _ s q r2 [A1 (phi & R & F)] E. split; [eapply relabelSimplex_ainv; eauto|].
    exists (fun y => ren1 s q (phi y)). split.
    + exact (renamed_trans _ _ _ _ _ R (relabelSimplex_renames _ _ _ _ (ainv_pinv _ A1) E)).
    + intros u Cu. rewrite (relabelSimplex_follow r1 s q r2 A1 E); [now apply F|].
      apply (renamed_contains phi r r1 _ (ainv_pinv _ A) (ainv_pinv _ A1) R). eauto.
  - split; [exact A|]. exists (fun y => y). split; [apply renamed_refl|]. intros u _. reflexivity.
Qed.

(* C15: the dictionary of s is, after a completed relabel, the dictionary of phi(s), for the phi of relabel_phi *)
Theorem relabel_attrs_follow r rn r' st mapping : ainv r -> rn <> RNone -> relabel r rn = (r', st, Ok mapping) ->
  ainv r' /\ forall s, containsSimplex r s = true -> assoc (memo_of st s) (r_attr r') = assoc s (r_attr r).
Proof.
  intros A Hrn H. split; [eapply relabel_ainv; eauto|].
  pose proof (ainv_pinv r A) as P.
  destruct (relabel_phi r rn r' st mapping P Hrn H) as ((_ & _ & _ & Hidx) & _ & _).
  unfold relabel in H.
  destruct (relabel_check rn rl0 (simplices r false) (simplices r false)) as [st0 [[]|e]]; [|discriminate].
  destruct (relabel_do_follow rn _ r st0 [] r' st (Ok mapping) A H) as (phi & (_ & _ & _ & Hidx') & Hfol).
  intros s Cs. destruct (proj1 (contains_iff_listed r s P) Cs) as (k & Hk).
  rewrite (simplicesOfOrder_idxk r k P) in Hk.
  assert (E : memo_of st s = phi s).
  { apply (ext_in_map (f := memo_of st) (g := phi) (l := idxk r k)); [|exact Hk]. now rewrite <- Hidx, <- Hidx'. }
  rewrite E. now apply Hfol.
Qed.
