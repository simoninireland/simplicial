(* LookupFaces.v -- C04: simplexWithFaces(fs), for a duplicate-free list of two or more simplices of one order of a
   complex that meets the vertex-set reading, answers the one simplex whose faces are exactly fs, None exactly when
   there is none, and never raises.  Plain Coq. *)
From Coq Require Import String ZArith Bool Arith List Lia.
From SV Require Import Names NamesFacts ListFacts Rep Fresh Complex Atomic RepInv Shapes AddEffect
                       Closed ClosedReach AddBasis BasisInv VInv AwbSpec VSets FlagSound FlagComplete CopyOk.
Import ListNotations.
Open Scope nat_scope.

Theorem lookup_by_faces_exact r fs : vinv r -> NoDup fs -> 2 <= length fs ->
  (forall f, In f fs -> exists j, assoc f (r_simp r) = Some (length fs - 1 - 1, j)) ->
  match simplexWithFaces r fs with
  | Ok (Some s) => containsSimplex r s = true /\ sameset (faces r s) fs /\
                   forall t, containsSimplex r t = true -> sameset (faces r t) fs -> t = s
  | Ok None => forall t, containsSimplex r t = true -> ~ sameset (faces r t) fs
  | Raise _ => False
  end.
Proof.
  intros Hv Hnd Hl Hf.
  pose proof (vinv_cinv r Hv) as C. pose proof (vinv_pinv r Hv) as P.
  assert (Hord : forall t, containsSimplex r t = true -> sameset (faces r t) fs ->
                 exists j, assoc t (r_simp r) = Some (length fs - 1, j)).
  { intros t Ct St. pose proof (order_by_faces r t C Ct) as Ho.
    rewrite (NoDup_same_length _ _ (faces_nodup r t P) Hnd St) in Ho. now apply orderOf_assoc in Ho. }
  rewrite (swf_total r fs Hl Hf).
  destruct (last (map Some (filter (fun s => seteq (faces r s) fs) (simplicesOfOrder r (length fs - 1)))) None) as [s|] eqn:E.
  - apply last_Some_In in E. apply filter_In in E. destruct E as [Hs Hq]. apply seteq_sameset in Hq.
    destruct (proj1 (listed_assoc r s _ P) Hs) as (j & As).
    split; [exact (assoc_contains r s _ _ As)|]. split; [exact Hq|]. intros t Ct St. destruct (Hord t Ct St) as (jt & At).
    destruct (length fs - 1) as [|o] eqn:Eo; [lia|].
    apply (same_faces_same_simplex r Hv s t o j jt As At). exact (sameset_trans _ _ _ St (sameset_sym _ _ Hq)).
  - intros t Ct St. destruct (Hord t Ct St) as (jt & At).
    pose proof (proj2 (listed_assoc r t _ P) (ex_intro _ jt At)) as Hin.
    assert (Hfil : In t (filter (fun s => seteq (faces r s) fs) (simplicesOfOrder r (length fs - 1)))).
    { apply filter_In. split; [exact Hin|]. now apply seteq_sameset. }
    destruct (filter _ _) as [|x l] eqn:Ef; [destruct Hfil|].
    clear -E. assert (X : forall (l0 : list name) (y : name), last (map Some (y :: l0)) None <> None).
    { induction l0 as [|z l0 IH]; intros y; simpl; [discriminate|]. apply (IH z). }
    now apply (X l x).
Qed.
