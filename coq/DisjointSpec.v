(* DisjointSpec.v -- C04: disjoint(ss), for simplices of a complex that meets the vertex-set reading, answers True
   exactly when no two of the listed simplices (two occurrences of one simplex included) have a point in common --
   i.e. when their closures are pairwise disjoint -- and never raises.  Plain Coq. *)
From Coq Require Import String ZArith Bool Arith List Lia.
From SV Require Import Names NamesFacts ListFacts Rep Fresh Complex Atomic RepInv Shapes Incidence AddEffect
                       Closed ClosedReach Duality AddBasis BasisInv VInv AwbSpec VSets.
Import ListNotations.
Open Scope nat_scope.

Definition cl (r : rep) (s : name) : list name := match closureOf r s false false with Ok L => L | Raise _ => [] end.
Definition meet (r : rep) (s t : name) : Prop := exists u, In u (cl r s) /\ In u (cl r t).

Lemma closureOf_ok r s : containsSimplex r s = true -> closureOf r s false false = Ok (cl r s).
Proof.
  intros C. unfold cl, closureOf. unfold containsSimplex in C. unfold orderOf.
  destruct (assoc s (r_simp r)) as [[k j]|]; [reflexivity|discriminate].
Qed.

Section D.
  Variable r : rep.
  Let step := fun (acc : res (bool * option (list name))) (s : name) =>
               match acc with
               | Raise e => Raise e
               | Ok (false, c) => Ok (false, c)
               | Ok (true, None) => bind (closureOf r s false false) (fun c => Ok (true, Some c))
               | Ok (true, Some c0) =>
                   bind (closureOf r s false false)
                        (fun c => if length (intern c0 c) =? 0 then Ok (true, Some (unionn c0 c)) else Ok (false, Some c0))
               end.

  Lemma fold_false ss c : (forall s, In s ss -> containsSimplex r s = true) ->
    exists c', fold_left step ss (Ok (false, c)) = Ok (false, c').
  Proof. revert c. induction ss as [|s ss IH]; intros c H; simpl; [eauto|]. apply IH. intros; apply H; now right. Qed.

  (* with the union U of the closures seen so far: True exactly when nothing listed meets U and no two listed meet *)
  Lemma fold_some : forall ss U, (forall s, In s ss -> containsSimplex r s = true) ->
    exists b c, fold_left step ss (Ok (true, Some U)) = Ok (b, c) /\
      (b = true <-> (forall s x, In s ss -> In x U -> In x (cl r s) -> False) /\ ForallOrdPairs (fun s t => ~ meet r s t) ss).
  Proof.
    induction ss as [|s ss IH]; intros U H.
    - exists true, (Some U). split; [reflexivity|]. split; [intros _; split; [intros s x []|constructor]|reflexivity].
    - cbn [fold_left]. unfold step at 2. rewrite (closureOf_ok r s (H s (or_introl eq_refl))). cbn [bind].
      destruct (length (intern U (cl r s)) =? 0) eqn:E.
      + pose proof (proj1 (intern_empty U (cl r s)) E) as E0. clear E. rename E0 into E.
        destruct (IH (unionn U (cl r s)) (fun t Ht => H t (or_intror Ht))) as (b & c & Ef & Hb).
        exists b, c. split; [exact Ef|]. rewrite Hb. split.
        * intros [H1 H2]. split.
          -- intros t x [<-|Ht] Hx Hc; [eapply E; eauto|]. apply (H1 t x Ht); [apply In_unionn; now left|exact Hc].
          -- constructor; [|exact H2]. apply Forall_forall. intros t Ht (u & Hu1 & Hu2).
             apply (H1 t u Ht); [apply In_unionn; now right|exact Hu2].
        * intros [H1 H2]. inversion H2 as [|a l Hfa Hrest]; subst. split.
          -- intros t x Ht Hx Hc. apply In_unionn in Hx. destruct Hx as [Hx|Hx].
             ++ apply (H1 t x (or_intror Ht) Hx Hc).
             ++ rewrite Forall_forall in Hfa. apply (Hfa t Ht). exists x. auto.
          -- exact Hrest.
      + destruct (fold_false ss (Some U) (fun t Ht => H t (or_intror Ht))) as (c' & Ef).
        exists false, c'. split; [exact Ef|]. split; [discriminate|]. intros [H1 _]. exfalso.
        assert (E' : (length (intern U (cl r s)) =? 0) = true).
        { apply (proj2 (intern_empty U (cl r s))). intros x Hx Hc. apply (H1 s x (or_introl eq_refl) Hx Hc). }
        congruence.
  Qed.

  Theorem disjoint_spec ss : (forall s, In s ss -> containsSimplex r s = true) ->
    exists b, disjoint r ss = Ok b /\ (b = true <-> ForallOrdPairs (fun s t => ~ meet r s t) ss).
  Proof.
    intros H. unfold disjoint. fold step. destruct ss as [|s ss].
    - exists true. split; [reflexivity|]. split; [constructor|reflexivity].
    - cbn [fold_left]. unfold step at 2. rewrite (closureOf_ok r s (H s (or_introl eq_refl))). cbn [bind].
      destruct (fold_some ss (cl r s) (fun t Ht => H t (or_intror Ht))) as (b & c & Ef & Hb).
      exists b. rewrite Ef. split; [reflexivity|]. rewrite Hb. split.
      + intros [H1 H2]. constructor; [|exact H2]. apply Forall_forall. intros t Ht (u & Hu1 & Hu2). eapply H1; eauto.
      + intros H2. inversion H2 as [|a l Hfa Hrest]; subst. split; [|exact Hrest].
        intros t x Ht Hx Hc. rewrite Forall_forall in Hfa. apply (Hfa t Ht). exists x. auto.
  Qed.
End D.

Theorem meet_iff_common_point r s t : vinv r -> containsSimplex r s = true -> containsSimplex r t = true ->
  (meet r s t <-> exists p, In p (basisOf r s) /\ In p (basisOf r t)).
Proof.
  intros Hv Cs Ct. pose proof (closureOf_is_subsets r s false (cl r s) Hv Cs (closureOf_ok r s Cs)) as Ss.
  pose proof (closureOf_is_subsets r t false (cl r t) Hv Ct (closureOf_ok r t Ct)) as St.
  split.
  - intros (u & Hu1 & Hu2). apply Ss in Hu1. apply St in Hu2. destruct Hu1 as [Cu I1]. destruct Hu2 as [_ I2].
    destruct (basis_nonempty r u Hv Cu) as (p & Hp).
    exists p. split; [apply I1|apply I2]; exact Hp.
  - intros (p & H1 & H2).
    destruct (closed_under_subsets r Hv s [p] Cs) as (u & Cu & Su).
    { constructor; [intros []|constructor]. } { discriminate. } { intros x [<-|[]]; exact H1. }
    exists u. split; [apply Ss|apply St]; (split; [exact Cu|]); intros x Hx; apply Su in Hx; destruct Hx as [<-|[]]; assumption.
Qed.
