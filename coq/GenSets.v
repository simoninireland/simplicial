(* GenSets.v -- k_simplex / k_void in vertex sets, and the frame clause of the point generator. *)
From Coq Require Import String ZArith Bool Arith List Lia.
From SV Require Import Names NamesFacts ListFacts Rep Fresh Complex Homology Atomic RepInv Shapes Incidence AddEffect
                       Closed ClosedReach AddBasis BasisInv Duality DeleteEffect CopyFaithful VInv AwbSpec Gen.
From SV Require Import VSets.
Import ListNotations.
Open Scope nat_scope.

Lemma add_points_spec : forall n r acc r' ss, vinv r -> add_points n r acc = (r', Ok ss) ->
  exists new, ss = acc ++ new /\ length new = n /\ NoDup new /\
    (forall p, In p new -> containsSimplex r p = false /\ containsSimplex r' p = true /\ basisOf r' p = [p]) /\
    vinv r' /\ grows new r r'.
Proof.
  induction n as [|n IH]; intros r acc r' ss Hv H; simpl in H.
  - injection H as <- <-. exists []. rewrite app_nil_r. split; [reflexivity|]. split; [reflexivity|].
    split; [constructor|]. split; [intros p []|]. split; [exact Hv|apply grows_refl].
  - destruct (addSimplex r [] None None) as [r1 [p|e]] eqn:E; simpl in H; [|discriminate].
    destruct (add_point_spec r None None r1 p Hv E) as (Hv1 & Hn & Hc1 & Hb1 & Hg1).
    destruct (IH r1 (acc ++ [p]) r' ss Hv1 H) as (new & -> & Hl & Hnd & Hnew & Hv' & Hg).
    exists (p :: new). rewrite <- app_assoc. split; [reflexivity|]. split; [simpl; lia|].
    assert (Hpn : ~ In p new) by (intros Hp; destruct (Hnew p Hp) as (C & _); congruence).
    split; [constructor; auto|]. split; [|split; [exact Hv'|]].
    + intros q [<-|Hq].
      * split; [exact Hn|]. destruct (g_old _ _ _ Hg p Hc1) as (C & _ & _ & B). split; [exact C|]. now rewrite B.
      * destruct (Hnew q Hq) as (C1 & C' & B'). split; [|auto].
        destruct (containsSimplex r q) eqn:Cq; auto. destruct (g_old _ _ _ Hg1 q Cq) as (C & _). congruence.
    + apply (grows_trans _ r r1 r').
      * apply (grows_mono [p]); auto. intros x [<-|[]]. now left.
      * apply (grows_mono new); auto. intros x Hx. now right.
Qed.

(* k_simplex(k), k >= 1, on a complex that meets the vertex-set reading: k+1 new points, and the sets of
   points that carry a simplex afterwards are those that did before and the non-empty subsets of the
   new points; nothing that was there changes *)
Theorem k_simplex_vertex_sets k id attr r r' : vinv r -> 1 <= k -> k_simplex k id attr r = (r', Ok tt) ->
  exists new, length new = S k /\ NoDup new /\ (forall p, In p new -> containsSimplex r p = false) /\
    vinv r' /\
    (forall t, containsSimplex r t = true ->
       containsSimplex r' t = true /\ orderOf r' t = orderOf r t /\ faces r' t = faces r t /\ basisOf r' t = basisOf r t) /\
    (forall B, NoDup B -> B <> [] ->
       ((exists t, containsSimplex r' t = true /\ sameset (basisOf r' t) B) <->
        (exists t, containsSimplex r t = true /\ sameset (basisOf r t) B) \/ incl B new)).
Proof.
  intros Hv Hk H. destruct k as [|k]; [lia|]. unfold k_simplex in H.
  destruct (add_points (S (S k)) r []) as [r1 [ss|e]] eqn:E1; simpl in H; [|discriminate].
  destruct (add_points_spec _ r [] r1 ss Hv E1) as (new & -> & Hl & Hnd & Hnew & Hv1 & Hg1). simpl in H.
  destruct (c_addSimplexWithBasis r1 new id attr) as [r2 [n|e]] eqn:E2; simpl in H; [|discriminate].
  injection H as <-.
  assert (Hl2 : 2 <= length new) by lia.
  destruct (addSimplexWithBasis_spec r1 new id attr r2 n Hv1 Hnd Hl2 E2) as (Hv2 & Hc & Hs & Hg2).
  exists new. split; [exact Hl|]. split; [exact Hnd|]. split; [intros p Hp; now destruct (Hnew p Hp)|].
  split; [exact Hv2|]. pose proof (grows_trans new r r1 r2 Hg1 Hg2) as Hg. split; [exact (g_old _ _ _ Hg)|].
  intros B NdB Hne. rewrite (add_by_basis_vertex_sets r1 new id attr r2 n Hv1 Hnd Hl2 E2 B NdB Hne). split.
  - intros [(t & Ht & Hst)|Hi]; [|now right]. destruct (containsSimplex r t) eqn:C.
    + left. exists t. split; auto. destruct (g_old _ _ _ Hg1 t C) as (_ & _ & _ & Bt). now rewrite <- Bt.
    + right. destruct (g_new _ _ _ Hg1 t Ht) as [C'|Hi]; [congruence|]. intros z Hz. apply Hi. now apply Hst.
  - intros [(t & Ht & Hst)|Hi]; [|now right]. left. exists t. destruct (g_old _ _ _ Hg1 t Ht) as (C & _ & _ & Bt).
    split; auto. now rewrite Bt.
Qed.

(* k_void(k): the same without the top simplex *)
Theorem k_void_vertex_sets k r r' : vinv r -> k_void k r = (r', Ok tt) ->
  exists new, length new = S (S k) /\ NoDup new /\ (forall p, In p new -> containsSimplex r p = false) /\
    vinv r' /\
    (forall t, containsSimplex r t = true -> containsSimplex r' t = true /\ sameset (basisOf r' t) (basisOf r t)) /\
    (forall B, NoDup B -> B <> [] ->
       ((exists t, containsSimplex r' t = true /\ sameset (basisOf r' t) B) <->
        (exists t, containsSimplex r t = true /\ sameset (basisOf r t) B) \/ (incl B new /\ ~ incl new B))).
Proof.
  intros Hv H. unfold k_void in H.
  destruct (k_simplex (S k) None None r) as [r1 [[]|e]] eqn:E1; simpl in H; [|discriminate].
  destruct (k_simplex_vertex_sets (S k) None None r r1 Hv (le_n_S _ _ (Nat.le_0_l k)) E1)
    as (new & Hl & Hnd & Hfresh & Hv1 & Hold & Hsets).
  pose proof (vinv_pinv r Hv) as P. pose proof (vinv_pinv r1 Hv1) as P1.
  destruct (filter (fun s => negb (memn s (simplicesOfOrder r (S k)))) (simplicesOfOrder r1 (S k))) as [|s l] eqn:EF; [discriminate|].
  assert (Hs : In s (s :: l)) by now left. rewrite <- EF in Hs. apply filter_In in Hs. destruct Hs as [Hs1 Hs2].
  apply negb_true_iff, memn_false in Hs2.
  (* s is a simplex of order k+1 of r1 that r does not have *)
  apply (listed_assoc r1 s (S k) P1) in Hs1. destruct Hs1 as (j & As1).
  pose proof (assoc_contains r1 s _ _ As1) as Cs1.
  assert (Cs0 : containsSimplex r s = false).
  { destruct (containsSimplex r s) eqn:C; auto. exfalso. apply Hs2, (listed_assoc r s (S k) P).
    destruct (Hold s C) as (_ & Ho & _). apply orderOf_assoc. rewrite <- Ho. apply orderOf_assoc. eauto. }
  assert (Bs : sameset (basisOf r1 s) new).
  { pose proof (v_card r1 Hv1 s (S k) j As1) as L0.
    assert (Hi : incl (basisOf r1 s) new).
    { destruct (proj1 (Hsets (basisOf r1 s) (basis_nodup r1 s P1) ltac:(intros E0; rewrite E0 in L0; discriminate)))
        as [(t & Ct & St)|Hi]; [exists s; split; [exact Cs1 | apply sameset_refl] | | exact Hi].
      exfalso. destruct (Hold t Ct) as (Ct1 & _ & _ & Bt).
      assert (t = s); [|subst; congruence]. apply (v_uniq r1 Hv1); auto. now rewrite Bt. }
    intros z. split; [apply Hi|]. apply NoDup_length_incl; [apply basis_nodup, P1 | lia | exact Hi]. }
  destruct (deleteSimplex_vertex_sets r1 s r' (Ok tt) Hv1 Cs1 H) as (_ & Hv' & Hm & Hb).
  assert (Hm' : forall t B, containsSimplex r1 t = true -> sameset (basisOf r1 t) B -> ~ incl new B ->
                containsSimplex r' t = true /\ sameset (basisOf r' t) B).
  { intros t B Ct St Hn. assert (Ct' : containsSimplex r' t = true).
    { apply Hm. split; [exact Ct|]. intros Hi. apply Hn. intros z Hz. apply St, Hi, Bs, Hz. }
    split; [exact Ct' | exact (sameset_trans _ _ _ (Hb t Ct') St)]. }
  (* no old simplex carries all the new points: it carries none of them *)
  assert (Oldnew : forall t, containsSimplex r t = true -> ~ incl new (basisOf r t)).
  { intros t Ct Hi. destruct new as [|p new0]; [discriminate|].
    destruct (basis_in_points r t p P (Hi p (or_introl eq_refl))) as (i & Ap).
    pose proof (assoc_contains r p _ _ Ap) as Cp. rewrite (Hfresh p (or_introl eq_refl)) in Cp. discriminate. }
  assert (Hold' : forall t, containsSimplex r t = true -> containsSimplex r' t = true /\ sameset (basisOf r' t) (basisOf r t)).
  { intros t Ct. destruct (Hold t Ct) as (Ct1 & _ & _ & Bt). apply (Hm' t _ Ct1); [rewrite Bt; apply sameset_refl | exact (Oldnew t Ct)]. }
  exists new. split; [exact Hl|]. split; [exact Hnd|]. split; [exact Hfresh|]. split; [exact Hv'|]. split; [exact Hold'|].
  intros B NdB Hne. split.
  - intros (t & Ct' & St). pose proof (proj1 (Hm t) Ct') as [Ct1 Hns].
    pose proof (sameset_trans _ _ _ (sameset_sym _ _ (Hb t Ct')) St) as St1.
    destruct (proj1 (Hsets B NdB Hne) (ex_intro _ t (conj Ct1 St1))) as [Ho|Hi]; [now left|].
    right. split; [exact Hi|]. intros Hn. apply Hns. intros z Hz. apply St1, Hn, Bs, Hz.
  - intros [(t & Ct & St)|[Hi Hn]].
    + exists t. destruct (Hold' t Ct) as [Ct' St']. split; [exact Ct' | exact (sameset_trans _ _ _ St' St)].
    + destruct (proj2 (Hsets B NdB Hne) (or_intror Hi)) as (t & Ct1 & St1). exists t. exact (Hm' t B Ct1 St1 Hn).
Qed.
