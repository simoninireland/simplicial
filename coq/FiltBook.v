(* FiltBook.v -- the bookkeeping of Filtration: _appears (simplex -> birth index) and _includes
   (index -> simplices born there) say the same thing after every history of public operations,
   the index the filtration stands at is always one of its indices, indices() is strictly
   ascending and contains every birth index, and the lookups addSimplex makes in these tables never fail
   (a KeyError can then only come from the complex underneath). *)
From Coq Require Import String ZArith Bool Arith List Lia Sorted.
From SV Require Import Names NamesFacts Rep Complex RepInv Filtration FiltProofs FiltClosed Shapes StarOrder Duality SortedViews DeleteEffect.
Import ListNotations.
Open Scope nat_scope.

Record binv (f : filt) : Prop := {
  b_app : NoDup (map fst (f_appears f));
  b_keys : NoDup (map fst (f_includes f));
  b_mo : map fst (f_maxOrders f) = map fst (f_includes f);
  b_cur : zassoc (f_index f) (f_includes f) <> None;
  b_nd : forall i l, zassoc i (f_includes f) = Some l -> NoDup l;
  b_iff : forall s i, assoc s (f_appears f) = Some i <->
                      exists l, zassoc i (f_includes f) = Some l /\ In s l }.

Lemma binv_new uid i : binv (new_filt uid i).
Proof.
  constructor; simpl; try reflexivity.
  - constructor.
  - constructor; [simpl; tauto|constructor].
  - now rewrite Z.eqb_refl.
  - intros j l. destruct (Z.eqb j i); [|discriminate]. intros [= <-]. constructor.
  - intros s j. split; [discriminate|]. intros (l & H & Hin). destruct (Z.eqb j i); [|discriminate].
    injection H as <-. destruct Hin.
Qed.

Lemma binv_rep f r : binv f -> binv (with_rep f r).
Proof. intros [A B C D E F]. constructor; auto. Qed.

Definition bucket (inc : list (idx * list name)) (i : idx) : list name :=
  match zassoc i inc with Some l => l | None => [] end.

Lemma bucket_set i l inc j : bucket (zassoc_set i l inc) j = if Z.eqb j i then l else bucket inc j.
Proof. unfold bucket. rewrite zassoc_set_spec. now destruct (Z.eqb j i). Qed.

Lemma bucket_del i inc j : NoDup (map fst inc) ->
  bucket (zassoc_del i inc) j = if Z.eqb j i then [] else bucket inc j.
Proof. intros H. unfold bucket. rewrite zassoc_del_spec by exact H. now destruct (Z.eqb j i). Qed.

Lemma bucket_new_key i inc j : zassoc i inc = None -> bucket (inc ++ [(i, [])]) j = bucket inc j.
Proof.
  intros H. unfold bucket. rewrite zassoc_app. destruct (zassoc j inc); [reflexivity|]. simpl. now destruct (Z.eqb j i).
Qed.

Lemma binv_buckets f : binv f <->
  NoDup (map fst (f_appears f)) /\ NoDup (map fst (f_includes f)) /\
  map fst (f_maxOrders f) = map fst (f_includes f) /\ zassoc (f_index f) (f_includes f) <> None /\
  (forall i, NoDup (bucket (f_includes f) i)) /\
  (forall s i, assoc s (f_appears f) = Some i <-> In s (bucket (f_includes f) i)).
Proof.
  unfold bucket. split.
  - intros [A B C D E F]. repeat split; auto.
    + intros i. destruct (zassoc i (f_includes f)) eqn:Z; [eapply E; eauto|constructor].
    + rewrite F. intros (l & -> & Hin). exact Hin.
    + intros Hin. apply F. destruct (zassoc i (f_includes f)) as [l|]; [eauto|destruct Hin].
  - intros (A & B & C & D & E & F). constructor; auto.
    + intros i l Hl. specialize (E i). now rewrite Hl in E.
    + intros s i. rewrite F. split.
      * destruct (zassoc i (f_includes f)) as [l|]; [eauto|intros []].
      * intros (l & -> & Hin). exact Hin.
Qed.

Lemma births_by_entries f s i : binv f ->
  (assoc s (f_appears f) = Some i <-> exists l, In (i, l) (f_includes f) /\ In s l).
Proof.
  intros Hb. rewrite (b_iff f Hb). split; intros (l & Hl & Hs); exists l; (split; [|exact Hs]).
  - now apply zassoc_some_in.
  - apply zassoc_of_in; [exact (b_keys f Hb)|exact Hl].
Qed.

Theorem setIndex_binv f i : binv f -> binv (f_setIndex f i).
Proof.
  intros Hb. unfold f_setIndex, f_isIndex. destruct (zassoc i (f_includes f)) as [l|] eqn:Z.
  - destruct Hb as [A B C D E F]. constructor; auto. simpl. congruence.
  - apply binv_buckets in Hb. destruct Hb as (A & B & C & D & E & F). apply binv_buckets. simpl.
    split; [exact A|]. split; [|split; [|split; [|split]]].
    + rewrite map_app. simpl. apply NoDup_app_snoc; [exact B|].
      intros Hin. apply zassoc_in in Hin. congruence.
    + rewrite !map_app, C. reflexivity.
    + rewrite zassoc_app, Z. simpl. now rewrite Z.eqb_refl.
    + intros j. now rewrite bucket_new_key.
    + intros s j. now rewrite bucket_new_key.
Qed.

(* needs the name to be new, which minv supplies *)
Theorem addSimplex_binv f fs id attr f' x : minv f -> binv f -> f_addSimplex f fs id attr = (f', x) ->
  binv f' /\ x <> Raise KeyError \/ binv f' /\ exists e, x = Raise e /\ f_appears f' = f_appears f.
Proof.
  intros Hm Hb H. unfold f_addSimplex in H.
  destruct (existsb _ fs).
  { injection H as <- <-. left. split; [exact Hb|discriminate]. }
  destruct (addSimplex (f_rep f) fs id attr) as [r' [n|e]] eqn:E.
  2: { injection H as <- <-. right. split; [now apply binv_rep|]. exists e. auto. }
  assert (Hn : assoc n (f_appears f) = None).
  { apply (m_dom f Hm). apply (addSimplex_contains _ _ _ _ _ _ (s_p _ (m_s f Hm)) E). }
  apply binv_buckets in Hb. destruct Hb as (A & B & C & D & E0 & F).
  destruct (zassoc (f_index f) (f_includes f)) as [cur|] eqn:Zc; [|congruence].
  assert (Bc : bucket (f_includes f) (f_index f) = cur) by (unfold bucket; now rewrite Zc).
  assert (Dm : zassoc (f_index f) (f_maxOrders f) <> None).
  { apply zassoc_in. rewrite C. apply zassoc_in. congruence. }
  destruct (zassoc (f_index f) (f_maxOrders f)) as [mo|] eqn:Zm; [|congruence].
  injection H as <- <-. left. split; [|discriminate].
  assert (Hncur : ~ In n cur) by (rewrite <- Bc, <- F; congruence).
  apply binv_buckets. simpl. split; [|split; [|split; [|split; [|split]]]].
  - rewrite map_app. simpl. apply NoDup_app_snoc; [exact A|]. now apply assoc_none_notin.
  - rewrite zassoc_set_keys by congruence. exact B.
  - rewrite zassoc_set_keys by congruence.
    destruct (mo <? maxOrder r')%Z; [rewrite zassoc_set_keys by congruence|]; exact C.
  - rewrite zassoc_set_spec, Z.eqb_refl. discriminate.
  - intros j. rewrite bucket_set. destruct (Z.eqb j (f_index f)); [|apply E0].
    apply NoDup_app_snoc; [rewrite <- Bc; apply E0|exact Hncur].
  - intros s j. rewrite assoc_app, bucket_set. specialize (F s j).
    destruct (Z.eqb_spec j (f_index f)) as [->|Hne].
    + rewrite in_app_iff, <- Bc, <- F. destruct (assoc s (f_appears f)) eqn:As; simpl.
      * split; [auto|]. intros [K|[<-|[]]]; [exact K|congruence].
      * destruct (name_eqb_spec s n) as [->|Hsn]; [split; auto|].
        split; [discriminate|]. intros [K|[K|[]]]; congruence.
    + rewrite <- F. destruct (assoc s (f_appears f)); [reflexivity|]. simpl.
      destruct (name_eqb s n); split; congruence.
Qed.

Theorem forceDelete_binv f s f' x : binv f -> f_forceDelete f s = (f', x) -> binv f'.
Proof.
  intros Hb H. unfold f_forceDelete in H.
  destruct (forceDeleteSimplex (f_rep f) s) as [r' [[]|e]].
  2: { injection H as <- _. now apply binv_rep. }
  destruct (assoc s (f_appears f)) as [i|] eqn:As.
  2: { injection H as <- _. now apply binv_rep. }
  apply binv_buckets in Hb. destruct Hb as (A & B & C & D & E0 & F).
  set (cur := match zassoc i (f_includes f) with Some l => l | None => [] end) in H.
  change cur with (bucket (f_includes f) i) in *. clear cur.
  set (cur' := filter (fun y => negb (name_eqb s y)) (bucket (f_includes f) i)) in *.
  (* both ways of updating _includes leave cur' at i and the other entries alone *)
  assert (G : forall inc' mo', NoDup (map fst inc') -> map fst mo' = map fst inc' ->
    zassoc (f_index f) inc' <> None ->
    (forall j, bucket inc' j = if Z.eqb j i then cur' else bucket (f_includes f) j) ->
    binv (mkFilt r' (f_index f) (assoc_del s (f_appears f)) inc' mo')).
  { intros inc' mo' B' C' D' Hb'. apply binv_buckets. simpl.
    split; [now apply nodup_assoc_del|]. do 3 (split; [assumption|]). split.
    - intros j. rewrite Hb'. destruct (Z.eqb j i); [apply NoDup_filter|]; apply E0.
    - intros t j. rewrite Hb'. destruct (name_eqb_spec t s) as [->|Hts].
      + rewrite assoc_del_same by exact A. split; [discriminate|]. intros Hin. exfalso.
        destruct (Z.eqb_spec j i) as [_|Hne]; [apply In_filter_neq in Hin; tauto|apply F in Hin; congruence].
      + rewrite assoc_del_other, F by exact Hts. destruct (Z.eqb_spec j i) as [Hj|]; [|reflexivity].
        rewrite Hj. unfold cur'. rewrite In_filter_neq. tauto. }
  assert (Zi : zassoc i (f_includes f) <> None).
  { apply F in As. unfold bucket in As. destruct (zassoc i (f_includes f)); [discriminate|destruct As]. }
  destruct ((length cur' =? 0) && negb (Z.eqb i (f_index f))) eqn:Cnd; injection H as <- _; apply G.
  - now apply zassoc_del_nodup.
  - now apply zassoc_del_keys.
  - apply andb_prop in Cnd. destruct Cnd as [_ Hi]. rewrite zassoc_del_spec by exact B.
    rewrite Z.eqb_sym. now destruct (Z.eqb i (f_index f)).
  - apply andb_prop in Cnd. destruct Cnd as [Hlen _]. apply Nat.eqb_eq, length_zero_iff_nil in Hlen.
    intros j. rewrite bucket_del, Hlen by exact B. reflexivity.
  - rewrite zassoc_set_keys by exact Zi. exact B.
  - rewrite zassoc_set_keys by exact Zi. exact C.
  - rewrite zassoc_set_spec. destruct (Z.eqb (f_index f) i); [discriminate|exact D].
  - intros j. apply bucket_set.
Qed.

Definition both (f : filt) : Prop := minv f /\ binv f.

Lemma both_new uid i : both (new_filt uid i).
Proof. split; [apply minv_new|apply binv_new]. Qed.

Lemma both_setIndex f i : both f -> both (f_setIndex f i).
Proof. intros [M B]. split; [now apply setIndex_minv|now apply setIndex_binv]. Qed.

Lemma both_add f fs id attr f' x : both f -> f_addSimplex f fs id attr = (f', x) -> both f'.
Proof.
  intros [M B] H. split; [eapply addSimplex_minv; eauto|].
  destruct (addSimplex_binv _ _ _ _ _ _ M B H) as [[Hb _]|[Hb _]]; exact Hb.
Qed.

Lemma both_forceDelete f s f' x : both f -> f_forceDelete f s = (f', x) -> both f'.
Proof. intros [M B] H. split; [eapply forceDelete_minv|eapply forceDelete_binv]; eauto. Qed.

Theorem filtration_history_binv uid i0 ops :
  minv (fold_left fstep ops (new_filt uid i0)) /\ binv (fold_left fstep ops (new_filt uid i0)).
Proof. apply (history_I both both_setIndex both_add (f_deleteSimplex_I both both_forceDelete)). apply both_new. Qed.

Theorem indices_strictly_ascending f : binv f -> StronglySorted Z.lt (f_indices f).
Proof. intros H. apply zsort_sorted. exact (b_keys f H). Qed.

Theorem current_index_is_an_index f : binv f -> In (f_index f) (f_indices f).
Proof. intros H. apply in_indices. exact (b_cur f H). Qed.

Theorem every_birth_is_an_index f s i : binv f -> f_addedAtIndex f s = Ok i -> In i (f_indices f).
Proof.
  intros H E. apply addedAt_iff in E. destruct E as [_ A].
  apply in_indices. apply (b_iff f H) in A. destruct A as (l & -> & _). discriminate.
Qed.

Theorem addedAt_lists_the_births f i b l : minv f -> binv f -> f_simplicesAddedAtIndex f i b = Ok l ->
  forall s, In s (map snd l) <-> f_addedAtIndex f s = Ok i.
Proof.
  intros Hm Hb E s. unfold f_simplicesAddedAtIndex in E. destruct (zassoc i (f_includes f)) as [ss|] eqn:Zi; [|discriminate].
  injection E as <-.
  set (ks := map (fun s0 => (match orderOf (f_rep f) s0 with Ok k => k | Raise _ => 0 end, s0)) ss).
  set (srt := if b then sort_desc ks else sort_asc ks).
  assert (Hsrt : forall q, In q srt <-> In q ks) by (intros q; destruct b; [apply In_sort_desc|apply In_sort_asc]).
  assert (Hin : In s (map snd srt) <-> In s ss).
  { rewrite in_map_iff. split.
    - intros (q & <- & Hq). apply Hsrt, in_map_iff in Hq. destruct Hq as (s0 & <- & Hs0). exact Hs0.
    - intros Hs. eexists (_, s). split; [reflexivity|]. apply Hsrt, in_map_iff. eauto. }
  rewrite Hin, (minv_born f s i Hm), (b_iff f Hb), Zi. split; [eauto|]. intros (l' & [= <-] & Hs). exact Hs.
Qed.

Theorem add_is_born_at_the_current_index f fs id attr f' n : minv f -> binv f ->
  f_addSimplex f fs id attr = (f', Ok n) ->
  f_addedAtIndex f' n = Ok (f_index f) /\ f_index f' = f_index f /\
  forall s, s <> n -> f_addedAtIndex f' s = f_addedAtIndex f s.
Proof.
  intros Hm Hb H. destruct (f_addSimplex_ok _ _ _ _ _ _ H) as (E & _).
  destruct (addSimplex_contains _ _ _ _ _ _ (s_p _ (m_s f Hm)) E) as [_ Hall].
  destruct (add_registers_birth _ _ _ _ _ _ (s_p _ (m_s f Hm)) (m_dom f Hm) H) as (Hn & Hi & Ho & _).
  unfold f_addedAtIndex, f_containsSome. repeat split.
  - now rewrite Hall, name_eqb_refl, orb_true_r, Hn.
  - exact Hi.
  - intros s Hs. now rewrite Hall, (name_eqb_neq s n), orb_false_r, (Ho s Hs) by exact Hs.
Qed.

Theorem moving_keeps_births f i s : f_addedAtIndex (f_setIndex f i) s = f_addedAtIndex f s.
Proof. unfold f_addedAtIndex, f_containsSome. now rewrite f_rep_setIndex, f_appears_setIndex. Qed.

Theorem forceDelete_keeps_other_births f s f' t : minv f -> f_forceDelete f s = (f', Ok tt) ->
  t <> s -> f_addedAtIndex f' t = f_addedAtIndex f t.
Proof.
  intros Hm H Hts.
  destruct (f_forceDelete_cases _ _ _ _ H) as [(e & _ & _ & [=])|(r' & E & [(_ & _ & [=])|(i0 & inc & mo & _ & _ & ->)])].
  destruct (assoc s (r_simp (f_rep f))) as [[k i]|] eqn:As.
  2: { unfold forceDeleteSimplex in E. rewrite As in E. discriminate. }
  pose proof (forceDelete_membership (f_rep f) s k i (m_s f Hm) As) as Hmem. rewrite E in Hmem. simpl in Hmem.
  unfold f_addedAtIndex, f_containsSome. simpl. rewrite Hmem, (name_eqb_neq t s) by exact Hts.
  now rewrite andb_true_r, assoc_del_other by exact Hts.
Qed.
