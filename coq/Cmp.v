(* Cmp.v -- the comparison operators (C10).  Plain Coq. *)
From Coq Require Import String ZArith Bool Arith List Lia.
From SV Require Import Names NamesFacts ListFacts Rep Fresh Complex Atomic RepInv.
Import ListNotations.
Open Scope nat_scope.

Definition le_spec (a c : rep) : Prop :=
  forall k i, k < r_nord a -> In i (simplicesOfOrder a k) ->
  containsSimplex c i = true /\ orderOf c i = Ok k /\ incl (faces a i) (faces c i).

Theorem le_iff a c : c_le a c = true <-> le_spec a c.
Proof.
  unfold c_le, isSubComplexOf, le_spec. rewrite forallb_forall. split.
  - intros H k i Hk Hi. specialize (H k). rewrite in_seq in H. specialize (H (conj (Nat.le_0_l k) Hk)).
    rewrite forallb_forall in H. specialize (H i Hi).
    apply andb_prop in H. destruct H as [H H3]. apply andb_prop in H. destruct H as [H1 H2].
    split; [exact H1|]. split.
    + destruct (orderOf c i) as [k'|e]; [|discriminate]. apply Nat.eqb_eq in H2. now subst.
    + now apply subsetn_incl.
  - intros H k Hk. apply in_seq in Hk. rewrite forallb_forall. intros i Hi.
    destruct (H k i (proj2 Hk) Hi) as (H1 & H2 & H3). rewrite H1, H2, Nat.eqb_refl. simpl. now apply subsetn_incl.
Qed.

Theorem lt_def a c : c_lt a c = c_le a c && (numberOfSimplices a <? numberOfSimplices c). Proof. reflexivity. Qed.
Theorem eq_def a c : c_eq a c = c_le a c && (numberOfSimplices a =? numberOfSimplices c). Proof. reflexivity. Qed.
Theorem ge_def a c : c_ge a c = c_le c a. Proof. reflexivity. Qed.
Theorem gt_def a c : c_gt a c = c_lt c a. Proof. reflexivity. Qed.
Theorem ne_def a c : c_ne a c = negb (c_eq a c). Proof. reflexivity. Qed.

Definition with_attr (r : rep) (at' : list (name * handle)) : rep :=
  mkRep (r_uid r) (r_nord r) (r_simp r) (r_idx r) (r_bnd r) (r_bas r) at' (r_seq r) (r_nalloc r).
Theorem attr_blind a c x y :
  c_le (with_attr a x) (with_attr c y) = c_le a c /\ c_eq (with_attr a x) (with_attr c y) = c_eq a c /\
  c_lt (with_attr a x) (with_attr c y) = c_lt a c.
Proof. repeat split. Qed.

Theorem le_refl a : pinv a -> c_le a a = true.
Proof.
  intros P. apply le_iff. intros k i Hk Hi. apply (listed_assoc a i k P) in Hi. destruct Hi as [j A].
  split; [exact (assoc_contains _ _ _ _ A)|]. split; [apply orderOf_assoc; eauto | apply incl_refl].
Qed.

Theorem eq_refl' a : pinv a -> c_eq a a = true.
Proof. intros H. unfold c_eq. rewrite le_refl by exact H. now rewrite Nat.eqb_refl. Qed.

Theorem le_trans a b c : pinv b -> c_le a b = true -> c_le b c = true -> c_le a c = true.
Proof.
  intros Hb H1 H2. apply le_iff in H1, H2. apply le_iff. intros k i Hk Hi.
  destruct (H1 k i Hk Hi) as (C1 & O1 & F1).
  (* i is listed at order k in b *)
  apply orderOf_assoc in O1. destruct O1 as [j A].
  destruct (H2 k i) as (C2 & O2 & F2); [apply (pinv_pos_lt b i k j Hb A) | apply (listed_assoc b i k Hb); eauto|].
  split; [exact C2|]. split; [exact O2|]. eapply incl_tran; eauto.
Qed.

Lemma numberOfSimplices_length r : pinv r -> numberOfSimplices r = length (simplices r false).
Proof.
  intros P. rewrite (simplices_concat r P), length_concat, map_map. reflexivity.
Qed.

Theorem le_antisym a b : pinv a -> pinv b -> c_le a b = true -> c_le b a = true -> c_eq a b = true.
Proof.
  intros Ha Hb H1 H2. unfold c_eq. rewrite H1. simpl. apply Nat.eqb_eq.
  rewrite !numberOfSimplices_length by assumption.
  assert (Hincl : forall x y, pinv x -> pinv y -> c_le x y = true -> incl (simplices x false) (simplices y false)).
  { intros x y Hx Hy H s Hs. apply le_iff in H. apply (In_simplices_iff x s Hx), containsSimplex_assoc in Hs.
    destruct Hs as (k & i & A). apply (In_simplices_iff y s Hy).
    apply (H k s); [apply (pinv_pos_lt x s k i Hx A) | apply (listed_assoc x s k Hx); eauto]. }
  apply Nat.le_antisymm; apply NoDup_incl_length; auto using simplices_nodup.
Qed.
