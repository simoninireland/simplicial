(* EulerP.v -- Euler-Poincare: the alternating sum of the Betti numbers equals the alternating sum
   of the numbers of columns of the boundary operators (telescoping of the ranks), hence the Euler
   characteristic wherever the operators have one column per simplex (C06 / C19). *)
From Coq Require Import ZArith Lia.
From mathcomp Require Import ssreflect ssrfun ssrbool eqtype ssrnat seq choice fintype finfun bigop finset fingroup perm ssralg zmodp matrix mxalgebra.
From SV Require Import Rep Complex Homology Betti.
Set Implicit Arguments.
Unset Strict Implicit.
Unset Printing Implicit Defensive.

Fixpoint alt_sumZ (sign : Z) (l : list Z) : Z :=
  match l with
  | nil => Z0
  | cons x t => Z.add (Z.mul sign x) (alt_sumZ (Z.opp sign) t)
  end.

Lemma telescope (n rho : nat -> Z) : forall m s a, rho (a + m)%coq_nat = Z0 ->
  alt_sumZ s (List.map (fun k => Z.sub (Z.sub (n k) (rho k)) (rho (S k))) (List.seq a m)) =
  Z.sub (alt_sumZ s (List.map n (List.seq a m))) (Z.mul s (rho a)).
Proof.
elim=> [|m IH] s a H /=.
- have -> : rho a = Z0 by rewrite -H; congr rho; lia.
  lia.
- rewrite IH; last by rewrite -H; congr rho; lia.
  lia.
Qed.

Theorem euler_poincare r :
  alt_sumZ (Zpos xH) (List.map (betti1 r) (List.seq 0 (r_nord r))) =
  alt_sumZ (Zpos xH) (List.map (fun k => Z.of_nat (ncols (boundaryOperator r k))) (List.seq 0 (r_nord r))).
Proof.
rewrite (List.map_ext _ _ (betti_formula r)).
rewrite (@telescope (fun k => Z.of_nat (ncols (boundaryOperator r k))) (fun k => Z.of_nat (rk (boundaryOperator r k)))).
- by rewrite rk_bop0; lia.
- by rewrite rk_bop_above.
Qed.

Lemma alt_sum_Z s l : alt_sum s l = alt_sumZ s (List.map Z.of_nat l).
Proof. by elim: l s => [|x t IH] s //=; rewrite IH. Qed.

Theorem euler_characteristic_is_alt_betti r :
  (forall k, (k < r_nord r)%coq_nat -> ncols (boundaryOperator r k) = length (simplicesOfOrder r k)) ->
  eulerCharacteristic r = alt_sumZ (Zpos xH) (List.map (betti1 r) (List.seq 0 (r_nord r))).
Proof.
move=> H. rewrite euler_poincare /eulerCharacteristic /numberOfSimplicesOfOrder alt_sum_Z List.map_map.
congr alt_sumZ. apply: List.map_ext_in => k /List.in_seq Hk. by rewrite H //; lia.
Qed.
