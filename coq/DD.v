(* DD.v -- consecutive boundary operators multiply to zero mod 2 (C03), for every complex that meets the
   vertex-set reading.  Plain Coq. *)
From Coq Require Import String ZArith Bool Arith List Lia.
From SV Require Import Names NamesFacts ListFacts Rep Complex RepInv Shapes Incidence Closed BasisInv VInv VSets.
Import ListNotations.
Open Scope nat_scope.

Lemma map_nth_seq {A B} (g : A -> B) d (l : list A) : map (fun u => g (nth u l d)) (seq 0 (length l)) = map g l.
Proof.
  induction l as [|a l IH]; [reflexivity|]. cbn [length seq map nth]. f_equal.
  rewrite <- seq_shift, map_map. exact IH.
Qed.

Section DD.
  Variable r : rep.
  Hypothesis Hv : vinv r.
  Let HS : sinv r := vinv_sinv r Hv.
  Let P : pinv r := vinv_pinv r Hv.

  Lemma face_basis_char t k j u : assoc t (r_simp r) = Some (S k, j) -> In u (faces r t) ->
    exists p, In p (basisOf r t) /\ forall z, In z (basisOf r u) <-> In z (basisOf r t) /\ z <> p.
  Proof.
    intros At Hu. destruct (face_drops_one r Hv t k j u At Hu) as (p & Hp & Hnp & _).
    exists p. split; [exact Hp | exact (face_without r Hv t k j u p At Hu Hp Hnp)].
  Qed.

  (* a face of t is determined by the point of t it lacks *)
  Lemma face_by_dropped t k j u u' p : assoc t (r_simp r) = Some (S k, j) -> In u (faces r t) -> In u' (faces r t) ->
    In p (basisOf r t) -> ~ In p (basisOf r u) -> ~ In p (basisOf r u') -> u = u'.
  Proof.
    intros At Hu Hu' Hp Hn Hn'.
    destruct (face_is_simplex r HS t u k j At Hu) as (i & Au). destruct (face_is_simplex r HS t u' k j At Hu') as (i' & Au').
    apply (v_uniq r Hv); [exact (assoc_contains r u k i Au) | exact (assoc_contains r u' k i' Au') |].
    intros z. now rewrite (face_without r Hv t k j u p At Hu Hp Hn z), (face_without r Hv t k j u' p At Hu' Hp Hn' z).
  Qed.

  Lemma subset_is_face t k j w i : assoc t (r_simp r) = Some (S k, j) -> assoc w (r_simp r) = Some (k, i) ->
    incl (basisOf r w) (basisOf r t) -> In w (faces r t).
  Proof.
    intros At Aw Hi. pose proof (v_card r Hv w k i Aw) as Lw.
    destruct (subsets_are_simplices r Hv 1 t (S k) j (basisOf r w) At) as (u & Cu & Su & (u' & Hu' & Eu)).
    - apply basis_nodup; exact P.
    - exact Hi.
    - lia.
    - destruct (basisOf r w); [discriminate|congruence].
    - simpl in Eu. subst u'. replace w with u; [exact Hu'|].
      apply (v_uniq r Hv); auto. exact (assoc_contains r w k i Aw).
  Qed.

  Theorem two_ways_down t k j w : assoc t (r_simp r) = Some (S (S k), j) ->
    let L := filter (fun u => memn w (faces r u)) (faces r t) in L = [] \/ length L = 2.
  Proof.
    intros At L. destruct L as [|u L'] eqn:EL; [now left|]. right. rewrite <- EL.
    assert (HuL : In u L) by (rewrite EL; now left).
    assert (InL : forall x, In x L <-> In x (faces r t) /\ In w (faces r x)).
    { intros x. unfold L. rewrite filter_In, memn_In. reflexivity. }
    apply InL in HuL. destruct HuL as [Hu Hw].
    destruct (face_is_simplex r HS t u (S k) j At Hu) as (iu & Au).
    destruct (face_is_simplex r HS u w k iu Au Hw) as (iw & Aw).
    (* u lacks p of t, w lacks q of u; the other way down is the face u2 of t that lacks q *)
    destruct (face_drops_one r Hv t (S k) j u At Hu) as (p & Hp & Hnp & Hpu).
    destruct (face_drops_one r Hv u k iu w Au Hw) as (q & Hq & Hnq & Hqw).
    pose proof (face_basis_sub r Hv t (S k) j u At Hu q Hq) as Hqt.
    destruct (every_point_dropped r Hv t (S k) j q At Hqt) as (u2 & Hu2 & Hnq2).
    destruct (face_is_simplex r HS t u2 (S k) j At Hu2) as (iu2 & Au2).
    assert (Hne : u <> u2) by (intros <-; contradiction).
    assert (Hw2 : In w (faces r u2)).
    { apply (subset_is_face u2 k iu2 w iw Au2 Aw). intros z Hz.
      apply (face_without r Hv t (S k) j u2 q At Hu2 Hqt Hnq2). split; [|intros ->; contradiction].
      apply (face_basis_sub r Hv t (S k) j u At Hu), (face_basis_sub r Hv u k iu w Au Hw), Hz. }
    (* a member x of L lacks a point of t outside w: that is p or q, so x is u or u2 *)
    assert (Hall : forall x, In x L -> x = u \/ x = u2).
    { intros x Hx. apply InL in Hx. destruct Hx as [Hx Hwx].
      destruct (face_is_simplex r HS t x (S k) j At Hx) as (ix & Ax).
      destruct (face_drops_one r Hv t (S k) j x At Hx) as (p' & Hp' & Hnp' & _).
      assert (Hnw : ~ In p' (basisOf r w)) by (intros Hc; apply Hnp', (face_basis_sub r Hv x k ix w Ax Hwx), Hc).
      destruct (Hpu p' Hp') as [-> | Hpu'].
      - left. exact (face_by_dropped t (S k) j x u p At Hx Hu Hp Hnp' Hnp).
      - right. destruct (Hqw p' Hpu') as [-> | Hc]; [|contradiction].
        exact (face_by_dropped t (S k) j x u2 q At Hx Hu2 Hqt Hnp' Hnq2). }
    apply (NoDup_same_length L [u; u2]).
    - apply NoDup_filter. apply faces_nodup. exact P.
    - constructor; [intros [E|[]]; now apply Hne|constructor; [intros []|constructor]].
    - intros x. split; [intros Hx; destruct (Hall x Hx) as [->| ->]; simpl; auto|].
      intros [<-|[<-|[]]]; apply InL; auto.
  Qed.

  Fixpoint parity (l : list bool) : bool := match l with [] => false | b :: t => xorb b (parity t) end.
  Lemma parity_count l : parity l = Nat.odd (length (filter (fun b => b) l)).
  Proof.
    induction l as [|b l IH]; [reflexivity|]. cbn [parity filter]. destruct b.
    - cbn [length]. rewrite xorb_true_l, IH, Nat.odd_succ, <- Nat.negb_odd. reflexivity.
    - rewrite xorb_false_l. exact IH.
  Qed.
  Lemma count_map {A} (f : A -> bool) l : length (filter (fun b => b) (map f l)) = length (filter f l).
  Proof. induction l as [|a l IH]; simpl; [reflexivity|]. destruct (f a); simpl; now rewrite IH. Qed.

  Lemma inner_zero t k j w : assoc t (r_simp r) = Some (S (S k), j) ->
    parity (map (fun u => memn w (faces r u) && memn u (faces r t)) (simplicesOfOrder r (S k))) = false.
  Proof.
    intros At. rewrite parity_count, count_map.
    assert (El : length (filter (fun s => memn w (faces r s) && memn s (faces r t)) (simplicesOfOrder r (S k))) =
                 length (filter (fun u => memn w (faces r u)) (faces r t))).
    { apply NoDup_same_length.
      - apply NoDup_filter. apply simplicesOfOrder_nodup. exact P.
      - apply NoDup_filter. apply faces_nodup. exact P.
      - intros x. rewrite !filter_In, andb_true_iff, !memn_In. split; [tauto|]. intros [Hx Hwx]. split; auto.
        destruct (face_is_simplex r HS t x (S k) j At Hx) as (ix & Ax). apply (listed_assoc r x (S k) P). eauto. }
    rewrite El. destruct (two_ways_down t k j w At) as [-> | ->]; reflexivity.
  Qed.

  (* entry (i, j) of d_{k+1} . d_{k+2}, the mod-2 sum over the (k+1)-simplices u of
     d_{k+1}[i,u] * d_{k+2}[u,j], vanishes *)
  Theorem dd_zero k i j :
    i < length (simplicesOfOrder r k) -> j < length (simplicesOfOrder r (S (S k))) ->
    parity (map (fun u => mentry (boundaryOperator r (S k)) i u && mentry (boundaryOperator r (S (S k))) u j)
                (seq 0 (length (simplicesOfOrder r (S k))))) = false.
  Proof.
    intros Hi Hj.
    destruct (nth_error (simplicesOfOrder r k) i) as [w|] eqn:Ew; [|apply nth_error_None in Ew; lia].
    destruct (nth_error (simplicesOfOrder r (S (S k))) j) as [t|] eqn:Et; [|apply nth_error_None in Et; lia].
    set (idx := simplicesOfOrder r (S k)).
    assert (E : map (fun u => mentry (boundaryOperator r (S k)) i u && mentry (boundaryOperator r (S (S k))) u j) (seq 0 (length idx)) =
                map (fun s => memn w (faces r s) && memn s (faces r t)) idx).
    { rewrite <- (map_nth_seq (fun s => memn w (faces r s) && memn s (faces r t)) (NInt 0) idx).
      apply map_ext_in. intros n Hn. apply in_seq in Hn.
      destruct (nth_error idx n) as [s|] eqn:Es; [|apply nth_error_None in Es; lia].
      rewrite (nth_error_nth idx n (NInt 0) Es). f_equal.
      - apply eq_true_iff_eq. rewrite (boundary_entries r k i n s w HS Es Ew), memn_In. reflexivity.
      - apply eq_true_iff_eq. rewrite (boundary_entries r (S k) n j t s HS Et Es), memn_In. reflexivity. }
    rewrite E. destruct (proj1 (listed_assoc r t (S (S k)) P) (nth_error_In _ _ Et)) as (j' & At).
    exact (inner_zero t k j' w At).
  Qed.

  Lemma In_symdiffn x a b : In x (symdiffn a b) <-> (In x a /\ ~ In x b) \/ (In x b /\ ~ In x a).
  Proof.
    unfold symdiffn. rewrite in_app_iff, !filter_In, !negb_true_iff, !memn_false. tauto.
  Qed.
  Lemma memn_symdiffn x a b : memn x (symdiffn a b) = xorb (memn x a) (memn x b).
  Proof.
    destruct (memn x (symdiffn a b)) eqn:E.
    - apply memn_In, In_symdiffn in E.
      destruct E as [[H1 H2]|[H1 H2]]; apply memn_In in H1; apply memn_false in H2; rewrite H1, H2; reflexivity.
    - apply memn_false in E. rewrite In_symdiffn in E.
      destruct (memn x a) eqn:Ea, (memn x b) eqn:Eb; try reflexivity; exfalso; apply E; [left|right];
        (split; [now apply memn_In | now apply memn_false]).
  Qed.
  Lemma NoDup_symdiffn a b : NoDup a -> NoDup b -> NoDup (symdiffn a b).
  Proof.
    intros Ha Hb. unfold symdiffn. apply NoDup_app'; try now apply NoDup_filter.
    intros x H1 H2. apply filter_In in H1, H2. destruct H1 as [H1 _]. destruct H2 as [_ H2].
    apply negb_true_iff, memn_false in H2. contradiction.
  Qed.

  Definition bfold (ss acc : list name) : list name := fold_left (fun bs s => symdiffn bs (faces r s)) ss acc.
  Lemma memn_bfold w : forall ss acc,
    memn w (bfold ss acc) = xorb (memn w acc) (parity (map (fun s => memn w (faces r s)) ss)).
  Proof.
    induction ss as [|s ss IH]; intros acc; cbn [bfold fold_left map parity]; [now rewrite xorb_false_r|].
    fold (bfold ss (symdiffn acc (faces r s))). rewrite IH, memn_symdiffn. now rewrite xorb_assoc.
  Qed.
  Lemma NoDup_bfold : forall ss acc, NoDup acc -> NoDup (bfold ss acc).
  Proof.
    induction ss as [|s ss IH]; intros acc Ha; cbn [bfold fold_left]; [exact Ha|].
    apply IH. apply NoDup_symdiffn; auto. apply faces_nodup. exact P.
  Qed.

  Lemma parity_false {A} (l : list A) : parity (map (fun _ => false) l) = false.
  Proof. induction l as [|a l IH]; [reflexivity|]. cbn [map parity]. rewrite IH. reflexivity. Qed.
  Lemma parity_ext {A} (f g : A -> bool) l : (forall x, In x l -> f x = g x) -> parity (map f l) = parity (map g l).
  Proof.
    induction l as [|a l IH]; intros H; [reflexivity|]. cbn [map parity].
    rewrite (H a (or_introl eq_refl)), IH; [reflexivity|]. intros x Hx. apply H. now right.
  Qed.
  Lemma parity_xor {A} (f g : A -> bool) l : parity (map (fun x => xorb (f x) (g x)) l) = xorb (parity (map f l)) (parity (map g l)).
  Proof.
    induction l as [|a l IH]; simpl; [reflexivity|]. rewrite IH.
    destruct (f a), (g a), (parity (map f l)), (parity (map g l)); reflexivity.
  Qed.
  Lemma parity_swap {A B} (f : A -> bool) (g : A -> B -> bool) (U : list A) : forall ss,
    parity (map (fun u => f u && parity (map (g u) ss)) U) =
    parity (map (fun s => parity (map (fun u => f u && g u s) U)) ss).
  Proof.
    induction ss as [|s ss IH]; cbn [map parity].
    - rewrite (parity_ext _ (fun _ => false)); [apply parity_false|]. intros; apply andb_false_r.
    - rewrite <- IH, <- parity_xor. apply parity_ext. intros u _. destruct (f u); reflexivity.
  Qed.
  Lemma parity_restrict (f : name -> bool) (b U : list name) : NoDup b -> NoDup U -> incl b U ->
    parity (map f b) = parity (map (fun u => f u && memn u b) U).
  Proof.
    intros Hb HU Hi. rewrite !parity_count, !count_map. f_equal. apply NoDup_same_length; try now apply NoDup_filter.
    intros x. rewrite !filter_In, andb_true_iff, memn_In. split; [intros [H1 H2]; auto|tauto].
  Qed.

  Lemma fold_stays_raised {A B} (F : res B -> A -> res B) : (forall e a, F (Raise e) a = Raise e) ->
    forall l e, fold_left F l (Raise e) = Raise e.
  Proof. intros HF. induction l as [|a l IH]; intros e; simpl; [reflexivity|]. now rewrite HF. Qed.

  Lemma chain_orders ss : isChainFatal r ss = Ok tt -> ss = [] \/ exists p, forall s, In s ss -> exists i, assoc s (r_simp r) = Some (p, i).
  Proof.
    destruct ss as [|s0 ss0]; [now left|]. intros H. right. unfold isChainFatal in H.
    destruct (orderOf r s0) as [p|e]; [|discriminate]. exists p.
    revert H. generalize (s0 :: ss0). clear s0 ss0. induction l as [|s ss IH]; intros H x Hx; [destruct Hx|]. cbn [fold_left] in H.
    (* a member that is unknown or of another order raises, and the loop stays raised *)
    destruct (negb (containsSimplex r s)); [now rewrite fold_stays_raised in H|].
    unfold orderOf in H. destruct (assoc s (r_simp r)) as [[sk i]|] eqn:As; [|now rewrite fold_stays_raised in H].
    destruct (Nat.eqb_spec sk p) as [->|]; [|now rewrite fold_stays_raised in H].
    destruct Hx as [<-|Hx]; [eauto|]. apply IH; auto.
  Qed.
  Lemma chain_ok ss p : (forall s, In s ss -> exists i, assoc s (r_simp r) = Some (p, i)) -> isChainFatal r ss = Ok tt.
  Proof.
    intros H. destruct ss as [|s0 ss0]; [reflexivity|]. unfold isChainFatal.
    destruct (H s0 (or_introl eq_refl)) as (i0 & A0). unfold orderOf at 1. rewrite A0.
    revert H. generalize (s0 :: ss0). clear. induction l as [|s ss IH]; intros H; [reflexivity|]. cbn [fold_left].
    destruct (H s (or_introl eq_refl)) as (i & As). unfold containsSimplex, orderOf. rewrite As. cbn [negb]. rewrite Nat.eqb_refl.
    apply IH. intros x Hx. apply H. now right.
  Qed.

  Lemma nil_of_no_member (l : list name) : (forall w, memn w l = false) -> l = [].
  Proof. destruct l as [|a l]; [reflexivity|]. intros H. specialize (H a). simpl in H. rewrite name_eqb_refl in H. discriminate. Qed.

  Lemma boundary_empty ss p : (forall s, In s ss -> exists i, assoc s (r_simp r) = Some (p, i)) ->
    (forall w, 0 < p -> parity (map (fun s => memn w (faces r s)) ss) = false) -> boundary r ss = Ok [].
  Proof.
    intros Hp H. unfold boundary. rewrite (chain_ok ss p Hp). f_equal. fold (bfold ss []).
    apply nil_of_no_member. intros w. rewrite memn_bfold. cbn [memn existsb]. rewrite xorb_false_l.
    destruct p as [|p]; [|apply H; lia].
    (* points have no faces *)
    rewrite (parity_ext _ (fun _ => false)); [apply parity_false|].
    intros s Hs. destruct (Hp s Hs) as (i & As). unfold faces. now rewrite As.
  Qed.

  Theorem boundary_is_mod2_sum ss b : boundary r ss = Ok b ->
    NoDup b /\ forall w, In w b <-> parity (map (fun s => memn w (faces r s)) ss) = true.
  Proof.
    intros H. unfold boundary in H. destruct (isChainFatal r ss) as [[]|e]; [|discriminate]. injection H as <-.
    fold (bfold ss []). split; [apply NoDup_bfold; constructor|].
    intros w. rewrite <- memn_In, memn_bfold. cbn [memn existsb]. now rewrite xorb_false_l.
  Qed.

  Theorem boundary_of_boundary ss b : boundary r ss = Ok b -> boundary r b = Ok [].
  Proof.
    intros H. unfold boundary in H. destruct (isChainFatal r ss) as [[]|e] eqn:Ec; [|discriminate]. injection H as <-.
    fold (bfold ss []).
    destruct (chain_orders ss Ec) as [->|(p & Hp)]; [reflexivity|].
    assert (Hb : forall u, In u (bfold ss []) -> exists s, In s ss /\ In u (faces r s)).
    { intros u Hu. apply memn_In in Hu. rewrite memn_bfold in Hu. simpl in Hu.
      destruct (existsb (fun s => memn u (faces r s)) ss) eqn:X.
      - apply existsb_exists in X. destruct X as (s & Hs & Hm). apply memn_In in Hm. eauto.
      - rewrite (parity_ext _ (fun _ => false)), parity_false in Hu; [discriminate|].
        intros s Hs. destruct (memn u (faces r s)) eqn:M; auto.
        assert (existsb (fun s => memn u (faces r s)) ss = true) by (apply existsb_exists; eauto). congruence. }
    assert (Hbo : forall u, In u (bfold ss []) -> exists i, assoc u (r_simp r) = Some (pred p, i)).
    { intros u Hu. destruct (Hb u Hu) as (s & Hs & Hf). destruct (Hp s Hs) as (i & As).
      destruct p as [|p]; [unfold faces in Hf; rewrite As in Hf; destruct Hf|]. exact (face_is_simplex r HS s u p i As Hf). }
    apply (boundary_empty _ (pred p) Hbo). intros w Hp0. destruct p as [|[|k]]; try (simpl in Hp0; lia). clear Hp0.
    rewrite (parity_restrict _ (bfold ss []) (simplicesOfOrder r (S k))).
    - rewrite (parity_ext _ (fun u => memn w (faces r u) && parity (map (fun s => memn u (faces r s)) ss))).
      2: { intros u _. rewrite memn_bfold. cbn [memn existsb]. now rewrite xorb_false_l. }
      rewrite (parity_swap (fun u => memn w (faces r u)) (fun u s => memn u (faces r s))).
      rewrite (parity_ext _ (fun _ => false)); [apply parity_false|].
      intros s Hs. destruct (Hp s Hs) as (j & As). exact (inner_zero s k j w As).
    - apply NoDup_bfold. constructor.
    - apply simplicesOfOrder_nodup. exact P.
    - intros u Hu. destruct (Hbo u Hu) as (i & Au). apply (listed_assoc r u (S k) P). eauto.
  Qed.
End DD.
