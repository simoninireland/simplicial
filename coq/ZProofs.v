(* ZProofs.v -- Z(): the number of chains returned for order k is n_k - rank d_k, the nullity of
   the order-k boundary operator (C07). *)
From Coq Require Import ZArith Lia.
From mathcomp Require Import ssreflect ssrfun ssrbool eqtype ssrnat seq choice fintype finfun bigop finset fingroup perm ssralg zmodp matrix mxalgebra.
From SV Require Import Rep Homology ListMat SnfCount Rank Betti.
Set Implicit Arguments.
Unset Strict Implicit.
Unset Printing Implicit Defensive.

Lemma reduce_pidform (L : Type) (B : mat) (cls : list (list L)) :
  pidform (nrows B) (ncols B) (rk B) (fst (reduceB (nrows B) (ncols B) (rows_of B) cls)).
Proof. exact: reduce_pid (wfm_rows_of B). Qed.

(* Z(k) reduces the order-k boundary operator with every column labelled by its simplex and
   returns the labels of the columns behind the rank *)
Lemma Z1_spec r k : let B := boundaryOperator r k in
  exists A cls',
    reduceB (nrows B) (ncols B) (rows_of B) (List.map (fun s => [:: s]) (simplicesOfOrder r k)) = (A, cls') /\
    pidform (nrows B) (ncols B) (rk B) A /\ length cls' = length (simplicesOfOrder r k) /\
    Z1 r k = List.skipn (rk B) cls'.
Proof.
move=> B; rewrite /Z1 -/B.
set cls := List.map _ _.
have := reduce_pidform B cls.
have := reduce_length (Nat.min (nrows B) (ncols B)) 0 _ cls (wfm_rows_of B).
rewrite -/(reduceB (nrows B) (ncols B) (rows_of B) cls).
case: (reduceB _ _ _ cls) => A cls'; rewrite [snd _]/= [fst _]/= => Hl Hpid; exists A, cls'.
split=> //; split=> //; split; first by rewrite Hl List.map_length.
by rewrite (kernelDim_pid _ _ _ _ Hpid); congr List.skipn; have := rk_le_cols B; lia.
Qed.

Theorem Z1_count r k :
  length (Z1 r k) = (length (simplicesOfOrder r k) - rk (boundaryOperator r k))%coq_nat.
Proof. by have [A [cls' [_ [_ [Hl ->]]]]] := Z1_spec r k; rewrite List.skipn_length Hl. Qed.
