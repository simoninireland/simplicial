(* FiltClosed.v -- in a filtration a face is born no later than its cofaces, for every history of
   index changes, adds and deletes; hence the complex seen at any index is closed under faces (C13).
   Plain Coq. *)
From Coq Require Import String ZArith Bool Arith List Lia.
From SV Require Import Names NamesFacts FoldRes Rep Complex Atomic RepInv Shapes AddEffect DelEffect DeleteEffect Filtration FiltProofs.
Import ListNotations.
Open Scope nat_scope.

(* the inherited deleteSimplex: a fold of Filtration.forceDeleteSimplex *)
Definition f_del_step (acc : filt * res unit) (t : name) : filt * res unit :=
  match acc with (f', Raise e) => (f', Raise e) | (f', Ok _) => f_forceDelete f' t end.

Lemma f_deleteSimplex_cases f s f' x : f_deleteSimplex f s = (f', x) ->
  f' = f \/ exists L, partOf (f_rep f) s true false = Ok L /\ fold_left f_del_step L (f, Ok tt) = (f', x).
Proof.
  unfold f_deleteSimplex. destruct (f_orderOf f s); [|intros [= <- _]; now left].
  destruct (partOf (f_rep f) s true false) as [L|e]; [|intros [= <- _]; now left]. right. eauto.
Qed.

Inductive fop :=
| FSetIndex (i : idx) | FNext | FPrev | FMin | FMax
| FAdd (fs : list name) (id : option name) (attr : option handle)
| FDelete (s : name).

Definition fstep (f : filt) (o : fop) : filt :=
  match o with
  | FSetIndex i => f_setIndex f i
  | FNext => fst (f_setNext f) | FPrev => fst (f_setPrev f)
  | FMin => fst (f_setMin f) | FMax => fst (f_setMax f)
  | FAdd fs id attr => fst (f_addSimplex f fs id attr)
  | FDelete s => fst (f_deleteSimplex f s)
  end.

Section FiltInv.
  Variable I : filt -> Prop.

  Lemma f_deleteSimplex_I : (forall f s f' x, I f -> f_forceDelete f s = (f', x) -> I f') ->
    forall f s f' x, I f -> f_deleteSimplex f s = (f', x) -> I f'.
  Proof.
    intros I_fdel f s f' x H E. destruct (f_deleteSimplex_cases _ _ _ _ E) as [->|(L & _ & EL)]; [exact H|].
    exact (fold_res_keeps I (fun g t => f_forceDelete g t) L I_fdel f (Ok tt) f' x H EL).
  Qed.

  Hypothesis I_set : forall f i, I f -> I (f_setIndex f i).
  Hypothesis I_add : forall f fs id attr f' x, I f -> f_addSimplex f fs id attr = (f', x) -> I f'.
  Hypothesis I_del : forall f s f' x, I f -> f_deleteSimplex f s = (f', x) -> I f'.

  Lemma moved_I f g : moved f g -> I f -> I g.
  Proof. intros [->|[i ->]] H; [exact H|now apply I_set]. Qed.

  Lemma fstep_I f o : I f -> I (fstep f o).
  Proof.
    intros H. destruct o; cbn [fstep].
    - now apply I_set.
    - exact (moved_I _ _ (setNext_moved f) H).
    - exact (moved_I _ _ (setPrev_moved f) H).
    - exact (moved_I _ _ (setMin_moved f) H).
    - exact (moved_I _ _ (setMax_moved f) H).
    - destruct (f_addSimplex f fs id attr) eqn:E. eapply I_add; eauto.
    - destruct (f_deleteSimplex f s) eqn:E. eapply I_del; eauto.
  Qed.

  Theorem history_I ops : forall f, I f -> I (fold_left fstep ops f).
  Proof. induction ops as [|o t IH]; intros f Hf; simpl; auto. apply IH. now apply fstep_I. Qed.
End FiltInv.

Record minv (f : filt) : Prop := {
  m_s : sinv (f_rep f);
  m_nd : NoDup (map fst (f_appears f));
  m_dom : forall s, assoc s (f_appears f) = None <-> containsSimplex (f_rep f) s = false;
  m_mono : forall s t bs, containsSimplex (f_rep f) s = true -> In t (faces (f_rep f) s) ->
           assoc s (f_appears f) = Some bs -> exists bt, assoc t (f_appears f) = Some bt /\ (bt <= bs)%Z }.

Lemma minv_born f s i : minv f -> (f_addedAtIndex f s = Ok i <-> assoc s (f_appears f) = Some i).
Proof.
  intros Hm. rewrite addedAt_iff. split; [tauto|]. intros A. split; [|exact A].
  destruct (containsSimplex (f_rep f) s) eqn:C; [reflexivity|]. apply (m_dom f Hm) in C. congruence.
Qed.

Lemma minv_new uid i : minv (new_filt uid i).
Proof.
  constructor; simpl.
  - apply sinv_empty.
  - constructor.
  - exact (finv_new uid i).
  - intros s t bs H. discriminate.
Qed.

Lemma minv_index f j inc mo : minv f -> minv (mkFilt (f_rep f) j (f_appears f) inc mo).
Proof. intros [A B C D]. constructor; auto. Qed.

Lemma minv_same_obs f r' : same_obs (f_rep f) r' -> minv f -> minv (with_rep f r').
Proof.
  intros Hs [A B C D]. destruct (same_obs_queries _ _ Hs) as (_ & _ & Qf & _ & _ & Qc & _).
  constructor; simpl; auto.
  - eapply sinv_same_obs; eauto.
  - intros s. rewrite Qc. apply C.
  - intros s t bs. rewrite Qc, Qf. apply D.
Qed.

Theorem setIndex_minv f i : minv f -> minv (f_setIndex f i).
Proof. intros H. unfold f_setIndex. destruct (f_isIndex f i); now apply minv_index. Qed.

Lemma minv_add f fs id attr r' n inc mo : minv f ->
  existsb (fun t => f_containsSome f t && negb (f_contains f t)) fs = false ->
  addSimplex (f_rep f) fs id attr = (r', Ok n) ->
  minv (mkFilt r' (f_index f) (f_appears f ++ [(n, f_index f)]) inc mo).
Proof.
  intros [HS Hnd Hdom Hmono] Ex E.
  destruct (addSimplex_effect _ _ _ _ _ _ HS E) as (Hnew & _ & _ & Hf & Hold & Hall).
  assert (Hn : assoc n (f_appears f) = None) by (now apply Hdom).
  constructor.
  - eapply addSimplex_sinv; eauto.
  - simpl. rewrite map_app. simpl. apply NoDup_app_snoc; [exact Hnd|]. now apply assoc_none_notin.
  - now apply (finv_snoc f _ n (f_index f)).
  - simpl. intros s t bs Hc Ht Hb. rewrite assoc_app in Hb. rewrite Hall in Hc.
    destruct (name_eqb_spec s n) as [->|Hne].
    + (* the new simplex: its faces are the ones asked for, all visible at the current index *)
      rewrite Hn in Hb. simpl in Hb. rewrite name_eqb_refl in Hb. injection Hb as <-.
      apply Hf in Ht.
      assert (Hct : containsSimplex (f_rep f) t = true).
      { destruct (addSimplex_eq2 _ _ _ _ _ _ E) as (r2 & h & Hs & _ & _ & Hchk & _).
        destruct (check_faces_ok_orders r2 _ fs Hchk t Ht) as (fo & fi & Af & _).
        destruct Hs as (_ & _ & Hsimp & _). rewrite Hsimp in Af. exact (assoc_contains _ _ _ _ Af). }
      assert (Hvis : f_contains f t = true).
      { destruct (f_contains f t) eqn:Ev; [reflexivity|].
        rewrite (proj2 (existsb_exists _ fs)) in Ex; [discriminate|]. exists t. unfold f_containsSome. now rewrite Hct, Ev. }
      apply f_contains_iff in Hvis. destruct Hvis as (_ & bt & At & Hle).
      exists bt. split; [|exact Hle]. rewrite assoc_app, At. reflexivity.
    + rewrite orb_false_r in Hc. destruct (Hold s Hc) as (_ & _ & F2 & _). rewrite F2 in Ht.
      destruct (assoc s (f_appears f)) as [b0|] eqn:A0; [|apply Hdom in A0; congruence].
      injection Hb as <-. destruct (Hmono s t b0 Hc Ht A0) as (bt & At & Hle). exists bt. split; [|exact Hle].
      rewrite assoc_app, At. reflexivity.
Qed.

Theorem addSimplex_minv f fs id attr f' x : minv f -> f_addSimplex f fs id attr = (f', x) -> minv f'.
Proof.
  intros Hm H. destruct (f_addSimplex_cases _ _ _ _ _ _ H) as [[-> _]|(Ex & r' & [n|e] & E & Hf')]; [exact Hm| |].
  - destruct Hf' as (_ & inc & mo & ->). eapply minv_add; eauto.
  - destruct Hf' as [-> _]. apply minv_same_obs; [|exact Hm]. apply addSimplex_atomic in E. tauto.
Qed.

Theorem forceDelete_minv f s f' x : minv f -> f_forceDelete f s = (f', x) -> minv f'.
Proof.
  intros Hm H. destruct (f_forceDelete_cases _ _ _ _ H) as [(e & _ & -> & _)|(r' & E & Hf')]; [exact Hm|].
  destruct Hm as [HS Hnd Hdom Hmono].
  destruct (assoc s (r_simp (f_rep f))) as [[k i]|] eqn:As.
  2: { unfold forceDeleteSimplex in E. rewrite As in E. discriminate. }
  assert (Er : r' = fst (forceDeleteSimplex (f_rep f) s)) by (now rewrite E).
  pose proof (forceDelete_membership (f_rep f) s k i HS As) as Hmem. rewrite <- Er in Hmem.
  destruct Hf' as [(Ab & _)|(i0 & inc & mo & _ & _ & ->)].
  { apply Hdom, containsSimplex_false_assoc in Ab. congruence. }
  constructor; simpl.
  - rewrite Er. apply (d_sinv _ s k i HS As).
  - now apply nodup_assoc_del.
  - intros t. rewrite Hmem. destruct (name_eqb_spec t s) as [->|Hne].
    + rewrite assoc_del_same by exact Hnd. rewrite andb_false_r. tauto.
    + rewrite assoc_del_other by exact Hne. rewrite andb_true_r. apply Hdom.
  - intros t u bt Hc Hu Hb. rewrite Hmem in Hc. apply andb_prop in Hc. destruct Hc as [Hc Hne].
    apply negb_true_iff in Hne. assert (Hts : t <> s) by (intros ->; rewrite name_eqb_refl in Hne; discriminate).
    rewrite assoc_del_other in Hb by exact Hts.
    pose proof Hc as Hc0. apply containsSimplex_assoc in Hc. destruct Hc as (kt & it & At).
    destruct (d_faces (f_rep f) s k i HS As t kt it Hts At) as [Hf _]. rewrite <- Er in Hf.
    apply Hf in Hu. destruct Hu as [Hu Hus].
    destruct (Hmono t u bt Hc0 Hu Hb) as (bu & Au & Hle). exists bu. split; [|exact Hle].
    now rewrite assoc_del_other.
Qed.

Theorem deleteSimplex_minv f s f' x : minv f -> f_deleteSimplex f s = (f', x) -> minv f'.
Proof. exact (f_deleteSimplex_I minv forceDelete_minv f s f' x). Qed.

Theorem filtration_history_minv uid i0 ops : minv (fold_left fstep ops (new_filt uid i0)).
Proof. apply (history_I minv setIndex_minv addSimplex_minv deleteSimplex_minv). apply minv_new. Qed.

Theorem view_closed_under_faces f i s t : minv f ->
  f_contains (at_index f i) s = true -> In t (faces (f_rep f) s) -> f_contains (at_index f i) t = true.
Proof.
  intros Hm Hs Ht. apply f_contains_iff in Hs. apply f_contains_iff. simpl in *.
  destruct Hs as (Hc & bs & Ab & Hb). destruct (m_mono f Hm s t bs Hc Ht Ab) as (bt & At & Hle). split.
  - destruct (containsSimplex (f_rep f) t) eqn:E; [reflexivity|]. apply (m_dom f Hm) in E. congruence.
  - exists bt. split; [exact At|lia].
Qed.
