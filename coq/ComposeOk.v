(* ComposeOk.v -- C16, the other direction: when the two complexes are compatible -- a name they share
   denotes simplices with the same points, and points they share carry the same name -- a.compose(c)
   succeeds (and is then the union, ComposeProofs.v).  For a simplex of c the lookup of its points in a
   finds the simplex itself or nothing; in the second case it can be added (CopyOk.v).  Plain Coq. *)
From Coq Require Import List.
From SV Require Import ListFacts Rep Complex RepInv BasisInv VInv Homology CopyOk ComposeProofs.
Import ListNotations.
Open Scope nat_scope.

Section ComposeOk.
  Variables a c : rep.
  Hypothesis Va : vinv a.
  Hypothesis Vc : vinv c.
  (* compatible: a shared name denotes the same points; shared points carry the same name *)
  Hypothesis K1 : forall s, containsSimplex c s = true -> containsSimplex a s = true -> sameset (basisOf a s) (basisOf c s).
  Hypothesis K2 : forall s t, containsSimplex c s = true -> containsSimplex a t = true ->
                  sameset (basisOf a t) (basisOf c s) -> t = s.
  Let Pa : pinv a := vinv_pinv a Va.
  Let Pc : pinv c := vinv_pinv c Vc.

  Lemma step_one done s rest hp d : simplices c false = done ++ s :: rest -> cstate a c done d ->
    exists hp1 d1, compose_step a c (hp, d, Ok tt) s = (hp1, d1, Ok tt).
  Proof.
    intros Hl St.
    assert (Cs : containsSimplex c s = true) by (apply (In_simplices_iff c s Pc); rewrite Hl; apply in_elt).
    assert (Bne : basisOf c s <> []).
    { apply containsSimplex_assoc in Cs. destruct Cs as (k & j & As). pose proof (v_card c Vc s k j As) as L.
      destruct (basisOf c s); [discriminate|congruence]. }
    destruct (lookup_total a (basisOf c s) Va (basis_nodup c s Pc) Bne) as [(q & El & Cq & Sq)|[El Hnone]].
    - (* a has a simplex on these points: it must be s *)
      pose proof (K2 s q Cs Cq Sq) as ->. eexists. eexists. apply compose_step_inv. left. eauto.
    - (* no simplex of a on these points: s is not in a, and is added *)
      assert (Nas : containsSimplex a s = false).
      { destruct (containsSimplex a s) eqn:E; auto. exfalso. apply (Hnone s E). now apply K1. }
      destruct (next_addable a c Va Vc K1 K2 hp d rl0 [] done s rest Hl St Nas) as (hp1 & d1 & E).
      exists hp1, d1. apply compose_step_inv. right. auto.
  Qed.

  (* C16: compatible operands are composed *)
  Theorem compose_succeeds hp uid : exists hp' d, compose hp a c None uid = (hp', d, Ok tt).
  Proof.
    unfold compose. destruct (copy_new_succeeds a Va hp uid) as (hp0 & d0 & E0). rewrite E0.
    rewrite compose_loop_fold, <- simplices_concat by exact Pc.
    destruct (prefix_ind (fun dn => exists hp1 d1, fold_left (compose_step a c) dn (hp0, d0, Ok tt) = (hp1, d1, Ok tt) /\ cstate a c dn d1)
                (simplices c false)) as (hp1 & d1 & E1 & _); [|intros dn s rest Hl (hp1 & d1 & E & St)|rewrite E1; eauto].
    - exists hp0, d0. split; [reflexivity | exact (cstate_copy hp a c uid hp0 d0 Pa E0)].
    - rewrite fold_left_app, E. cbn [fold_left].
      destruct (step_one dn s rest hp1 d1 Hl St) as (hp2 & d2 & E2). rewrite E2. eauto using cstate_step.
  Qed.
End ComposeOk.
