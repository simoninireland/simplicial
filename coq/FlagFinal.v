(* FlagFinal.v -- C11 and C12 without side conditions: with CopyOk.v the working copy inside
   flagComplex always succeeds on a complex that meets the vertex-set reading.  Plain Coq. *)
From Coq Require Import String ZArith Bool Arith List Lia.
From SV Require Import ListFacts Rep VInv Homology World MinCycle FlagSound FlagComplete CopyOk VRProofs.
Import ListNotations.
Open Scope nat_scope.

Theorem flag_complex_is_clique_complex hp src uid : vinv src ->
  exists hp1 r', flagComplex hp src uid = (hp1, r', Ok tt) /\ vinv r' /\
    forall B, NoDup B -> 2 <= length B -> (carried r' B <-> clique src B).
Proof.
  intros Hv. destruct (copy_new_succeeds src Hv hp uid) as (hp1 & c & E0).
  destruct (flagComplex_is_clique_complex hp src uid hp1 c Hv E0) as (r' & H). exists hp1, r'. exact H.
Qed.

Theorem flag_complex_fills_facets hp src uid : vinv src ->
  exists hp1 r', flagComplex hp src uid = (hp1, r', Ok tt) /\
    forall B, NoDup B -> 3 <= length B -> (forall x, In x B -> carried r' (drop x B)) -> carried r' B.
Proof.
  intros Hv. destruct (copy_new_succeeds src Hv hp uid) as (hp1 & c & E0).
  destruct (flagComplex_fills_facets hp src uid hp1 c Hv E0) as (r' & H). exists hp1, r'. exact H.
Qed.

(* C11: "taking the flag complex again adds nothing" *)
Theorem flag_complex_idempotent hp src uid hp1 r1 hp' uid' : vinv src -> flagComplex hp src uid = (hp1, r1, Ok tt) ->
  exists hp2 r2, flagComplex hp' r1 uid' = (hp2, r2, Ok tt) /\
    forall B, NoDup B -> 2 <= length B -> (carried r2 B <-> carried r1 B).
Proof.
  intros Hv E1.
  destruct (flag_complex_is_clique_complex hp src uid Hv) as (hp1' & r1' & E1' & V1 & I1).
  rewrite E1 in E1'. injection E1' as <- <-.
  destruct (flag_complex_is_clique_complex hp' r1 uid' V1) as (hp2 & r2 & E2 & V2 & I2).
  exists hp2, r2. split; [exact E2|]. intros B HB LB. rewrite (I2 B HB LB). split.
  - (* a clique of r1's edges is a clique of the source's edges: r1's edges are carried 2-sets of r1 *)
    intros Cl. apply (I1 B HB LB). intros p q Hp Hq Ne.
    apply (proj1 (I1 [p; q] (nodup2 p q Ne) (le_n 2))); [|now left|right; now left|exact Ne].
    apply (edge_carried_iff r1 p q V1 Ne). now apply Cl.
  - intros (t & Ct & St) p q Hp Hq Ne. apply (simplex_is_clique r1 t p q V1 Ct); [now apply St | now apply St | exact Ne].
Qed.

(* C12 without side conditions *)
Theorem vr_complex_family hp uid u r close vr :
  NoDup (simplicesOfOrder r 0) ->
  (forall ij, In ij close -> fst ij < snd ij /\ snd ij < length (simplicesOfOrder r 0)) ->
  vr_build uid r close = (vr, Ok tt) ->
  exists hp1 r', flagComplex hp vr u = (hp1, r', Ok tt) /\ vinv r' /\
    (forall p, carried r' [p] <-> In p (simplicesOfOrder r 0)) /\
    vr_fam (simplicesOfOrder r 0) close r'.
Proof.
  intros Hnd Hcl Hb. destruct (vr_build_spec uid r close vr Hnd Hcl Hb) as (Hv & _).
  destruct (copy_new_succeeds vr Hv hp u) as (hp1 & c & E0).
  destruct (vr_family hp uid u r close vr hp1 c Hnd Hcl Hb E0) as (r' & H). exists hp1, r'. exact H.
Qed.
