(* VIso.v -- the vertex-set reading passes to sub-complexes with the same face relation: copies and
   snapshots of filtrations.  Plain Coq. *)
From Coq Require Import String ZArith Bool Arith List Lia.
From SV Require Import Names NamesFacts ListFacts Rep Fresh Complex Atomic RepInv ReachGen Shapes Incidence AddEffect
                       Closed ClosedReach AddBasis BasisInv CopyFaithful VInv AwbSpec VSets Filtration FiltProofs SnapProofs.
Import ListNotations.
Open Scope nat_scope.

Section Sub.
  Variables r r' : rep.
  Hypothesis Hv : vinv r.
  Hypothesis Hb' : bcinv r'.
  Hypothesis Hsub : forall s, containsSimplex r' s = true ->
    containsSimplex r s = true /\ orderOf r' s = orderOf r s /\ forall t, In t (faces r' s) <-> In t (faces r s).

  Theorem vinv_sub : vinv r' /\ forall s, containsSimplex r' s = true -> sameset (basisOf r' s) (basisOf r s).
  Proof. exact (vinv_subcomplex r r' Hv Hb' Hsub). Qed.
End Sub.

Lemma copy_new_bcinv hp src uid hp' c x : copy_new hp src uid = (hp', c, x) -> bcinv c.
Proof.
  intros H. eapply (copy_new_I bcinv);
    eauto using bcinv_same_obs, bcinv_empty, addSimplex_bcinv, relabelSimplex_bcinv, deleteSimplex_bcinv.
Qed.

Theorem copy_vinv hp src uid hp' c : vinv src -> copy_new hp (view_of src) uid = (hp', c, Ok tt) ->
  vinv c /\ forall s, containsSimplex c s = true -> sameset (basisOf c s) (basisOf src s).
Proof.
  intros Hv H. pose proof (vinv_pinv src Hv) as P.
  destruct (copy_faithful hp src uid hp' c H) as (_ & Hm & Hf).
  apply (vinv_sub src c Hv (copy_new_bcinv _ _ _ _ _ _ H)).
  intros s Cs. rewrite Hm in Cs. apply memn_In in Cs. pose proof (proj1 (In_simplices_iff src s P) Cs) as Cs'.
  split; [exact Cs'|]. destruct (Hf s Cs) as [Ho Hff]. split; [|exact Hff].
  rewrite Ho. symmetry. apply order_by_faces; [apply vinv_cinv, Hv | exact Cs'].
Qed.

Theorem snap_vinv hp f uid hp' c : vinv (f_rep f) -> copy_new hp (f_view f) uid = (hp', c, Ok tt) ->
  vinv c /\ forall s, containsSimplex c s = true -> sameset (basisOf c s) (basisOf (f_rep f) s).
Proof.
  intros Hv H.
  destruct (snap_answers_as_filtration hp f uid hp' c (vinv_pinv _ Hv) H) as (_ & Hm & Hf).
  apply (vinv_sub (f_rep f) c Hv (copy_new_bcinv _ _ _ _ _ _ H)).
  intros s Cs. rewrite Hm in Cs. pose proof Cs as Cf. unfold f_contains in Cf. apply andb_prop in Cf. destruct Cf as [Cr _].
  split; [exact Cr|]. destruct (Hf s Cs) as [Ho Hff]. split; [|exact Hff].
  rewrite Ho. symmetry. apply order_by_faces; [apply vinv_cinv, Hv | exact Cr].
Qed.
