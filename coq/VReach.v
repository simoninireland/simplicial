(* VReach.v -- the vertex-set reading holds at every point of every history of in-contract public
   operations: adding points, adding by basis, deleting (a simplex, by basis, several), restricting
   to a set of points, renaming (one simplex or a whole renaming).  Plain Coq. *)
From Coq Require Import String ZArith Bool Arith List Lia.
From SV Require Import Names NamesFacts ListFacts Rep Fresh Complex Atomic RepInv ReachGen Shapes AddEffect
                       Closed ClosedReach AddBasis BasisInv.
From SV Require Import VInv AwbSpec.
Import ListNotations.
Open Scope nat_scope.

Inductive vop :=
| VPoint (id : option name) (attr : option handle)
| VAddB (bs : list name) (id : option name) (attr : option handle)
| VDelete (s : name) | VDeleteB (bs : list name) | VDeletes (ss : list name)
| VRestrict (bs : list name)
| VRelabel (rn : ren) | VRelabel1 (s q : name).

(* add by basis: a duplicate-free basis of at least two names (DESIGN.md 5(e)); a rejected request
   leaves the complex as it was (C05) *)
Definition vstep (r : rep) (o : vop) : rep :=
  match o with
  | VPoint id attr => fst (addSimplex r [] id attr)
  | VAddB bs id attr =>
      if nodupb bs && (2 <=? length bs) then
        match c_addSimplexWithBasis r bs id attr with (r', Ok _) => r' | (_, Raise _) => r end
      else r
  | VDelete s => fst (deleteSimplex r s)
  | VDeleteB bs => fst (deleteSimplexWithBasis r bs)
  | VDeletes ss => fst (deleteSimplices r ss)
  | VRestrict bs => fst (restrictBasisTo r bs)
  | VRelabel rn => let '(r', _, _) := relabel r rn in r'
  | VRelabel1 s q => fst (relabelSimplex r s q)
  end.

Lemma vstep_vinv r o : vinv r -> vinv (vstep r o).
Proof.
  intros H. destruct o; cbn [vstep].
  - destruct (addSimplex r [] id attr) eqn:E. eapply addSimplex_vinv; [exact H | now left | exact E].
  - destruct (nodupb bs && (2 <=? length bs)) eqn:C; [|exact H]. apply andb_prop in C. destruct C as [C1 C2].
    apply nodupb_NoDup in C1. apply Nat.leb_le in C2.
    destruct (c_addSimplexWithBasis r bs id attr) as [r' [n|e]] eqn:E; [|exact H].
    now destruct (addSimplexWithBasis_spec r bs id attr r' n H C1 C2 E).
  - destruct (deleteSimplex r s) eqn:E. eapply deleteSimplex_vinv; eauto.
  - destruct (deleteSimplexWithBasis r bs) eqn:E. eapply (deleteSimplexWithBasis_I vinv deleteSimplex_vinv); eauto.
  - destruct (deleteSimplices r ss) eqn:E. eapply (deleteSimplices_I vinv deleteSimplex_vinv); eauto.
  - destruct (restrictBasisTo r bs) eqn:E. eapply (restrictBasisTo_I vinv deleteSimplex_vinv); eauto.
  - destruct (relabel r rn) as [[r' st] x] eqn:E. eapply (relabel_I vinv relabelSimplex_vinv); eauto.
  - destruct (relabelSimplex r s q) eqn:E. eapply relabelSimplex_vinv; eauto.
Qed.

Theorem vertex_set_reading_at_every_point uid ops : vinv (fold_left vstep ops (empty_rep uid)).
Proof.
  assert (H : forall r, vinv r -> vinv (fold_left vstep ops r)).
  { induction ops as [|o t IH]; intros r Hr; simpl; auto. apply IH. now apply vstep_vinv. }
  apply H. apply vinv_empty.
Qed.

(* in the words of C01 *)
Theorem a_simplex_is_its_basis r : vinv r ->
  (forall t k, orderOf r t = Ok k -> NoDup (basisOf r t) /\ length (basisOf r t) = S k /\
               forall p, In p (basisOf r t) -> orderOf r p = Ok 0) /\
  (forall t u, containsSimplex r t = true -> containsSimplex r u = true ->
               (forall p, In p (basisOf r t) <-> In p (basisOf r u)) -> t = u).
Proof.
  intros Hv. pose proof (vinv_pinv r Hv) as P. split.
  - intros t k Ho. apply orderOf_assoc in Ho. destruct Ho as (j & At).
    split; [now apply basis_nodup|]. split; [eapply v_card; eauto|].
    intros p Hp. apply orderOf_assoc. exact (basis_in_points r t p P Hp).
  - intros t u Ht Hu Hss. eapply v_uniq; eauto.
Qed.

(* add by basis, in the words of C02: the simplex on bs is there afterwards under the returned name,
   nothing that was there has changed, and everything new lies inside bs and was missing before *)
Theorem add_by_basis_effect r bs id attr r' n : vinv r -> NoDup bs -> 2 <= length bs ->
  c_addSimplexWithBasis r bs id attr = (r', Ok n) ->
  vinv r' /\ containsSimplex r' n = true /\ (forall p, In p (basisOf r' n) <-> In p bs) /\
  (forall t, containsSimplex r t = true ->
     containsSimplex r' t = true /\ orderOf r' t = orderOf r t /\ faces r' t = faces r t /\ basisOf r' t = basisOf r t) /\
  (forall t, containsSimplex r' t = true -> containsSimplex r t = false ->
     incl (basisOf r' t) bs /\ forall u, containsSimplex r u = true -> ~ (forall p, In p (basisOf r u) <-> In p (basisOf r' t))).
Proof.
  intros Hv Hnd Hl H. destruct (addSimplexWithBasis_spec r bs id attr r' n Hv Hnd Hl H) as (Hv' & Hc & Hs & [O N]).
  split; [exact Hv'|]. split; [exact Hc|]. split; [exact Hs|]. split; [exact O|].
  intros t Ht Hnt. destruct (N t Ht) as [Hold|Hi]; [congruence|]. split; [exact Hi|].
  intros u Hu Hss. destruct (O u Hu) as (Cu & _ & _ & Bu).
  assert (u = t); [|subst; congruence].
  apply (v_uniq r' Hv' u t Cu Ht). intros p. rewrite Bu. apply Hss.
Qed.
