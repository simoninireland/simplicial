(* Closed.v -- every simplex of order k >= 1 has exactly k+1 faces (all distinct, all simplices of
   order k-1): the invariant cinv, kept by addSimplex, relabelSimplex and deleteSimplex (C01; along
   every history of public operations in ClosedReach.v).  It survives deletions because deleteSimplex
   walks the star cofaces-first (StarOrder.v), so that a simplex is only ever removed when nothing
   has it as a face (DelEffect.v): deleteSimplex_inv, for any invariant of that kind.  Plain Coq. *)
From Coq Require Import String ZArith Bool Arith List Lia.
From SV Require Import Names NamesFacts ListFacts Rep Fresh Complex Atomic RepInv Shapes Incidence AddEffect RelabelProofs.
From SV Require Import DelEffect StarOrder.
Import ListNotations.
Open Scope nat_scope.

Lemma NoDup_names_of_col idx col : NoDup idx -> NoDup (names_of_col idx col).
Proof.
  unfold names_of_col. revert col. induction idx as [|a idx IH]; intros col H; [constructor|].
  destruct col as [|b col]; [constructor|]. inversion H as [|x xs Hx Hxs]; subst. simpl.
  destruct b; simpl; [|now apply IH]. constructor; [|now apply IH].
  intros Hin. apply Hx. apply in_map_iff in Hin. destruct Hin as ([n c] & En & Hn). simpl in En. subst n.
  apply filter_In in Hn. destruct Hn as [Hn _]. now apply in_combine_l in Hn.
Qed.

Lemma faces_nodup r t : pinv r -> NoDup (faces r t).
Proof.
  intros P. unfold faces. destruct (assoc t (r_simp r)) as [[[|k'] j]|] eqn:At; try constructor.
  apply NoDup_names_of_col, pinv_nodup_order, P.
Qed.

Definition finv (r : rep) : Prop :=
  forall t k' j, assoc t (r_simp r) = Some (S k', j) -> length (faces r t) = S (S k').
Record cinv (r : rep) : Prop := { c_s : sinv r; c_f : finv r }.

Lemma cinv_empty uid : cinv (empty_rep uid).
Proof. split; [apply sinv_empty|]. intros t k' j H. discriminate. Qed.

Lemma cinv_same_obs r r' : same_obs r r' -> cinv r -> cinv r'.
Proof.
  intros Hs [HS F]. apply (sinv_same_obs r r' Hs) in HS. rewrite (same_obs_eq r r' Hs) in *. now split.
Qed.

Lemma order_by_faces r s : cinv r -> containsSimplex r s = true -> orderOf r s = Ok (length (faces r s) - 1).
Proof.
  intros [_ F] C. apply containsSimplex_assoc in C. destruct C as (k & j & A).
  apply orderOf_assoc. exists j. destruct k as [|o]; [unfold faces; now rewrite A | now rewrite (F s o j A)].
Qed.

Theorem addSimplex_cinv r fs id attr r' x : cinv r -> addSimplex r fs id attr = (r', x) -> cinv r'.
Proof.
  revert r fs id attr r' x. apply (addSimplex_lift cinv cinv_same_obs). intros r fs id attr r' n [HS F] H.
  assert (HS' : sinv r') by (eapply addSimplex_sinv; eauto). split; [exact HS'|].
  destruct (addSimplex_effect r fs id attr r' n HS H) as (Hnew & Hnd & Ho & Hf & Hold & Hall).
  intros t k' j At. pose proof (assoc_contains _ _ _ _ At) as Hc'. rewrite Hall in Hc'.
  destruct (name_eqb_spec t n) as [->|Hne].
  - unfold orderOf in Ho. rewrite At in Ho. injection Ho as Ho.
    rewrite (NoDup_same_length (faces r' n) fs (faces_nodup r' n (s_p r' HS')) Hnd Hf). lia.
  - rewrite orb_false_r in Hc'. destruct (Hold t Hc') as (O & _ & Fa & _).
    rewrite Fa. unfold orderOf in O. rewrite At in O.
    destruct (assoc t (r_simp r)) as [[k2 i2]|] eqn:A2; [|discriminate]. injection O as <-. eapply F; eauto.
Qed.

Theorem relabelSimplex_cinv r s q r' x : cinv r -> relabelSimplex r s q = (r', x) -> cinv r'.
Proof.
  revert r s q r' x. apply (relabelSimplex_lift cinv). intros r s q r' [HS F] H.
  assert (HS' : sinv r') by (eapply relabelSimplex_sinv; eauto). split; [exact HS'|].
  destruct (relabelSimplex_carries r s q r' (s_p r HS) H) as (Eb & _ & En & Ei & _).
  intros t k' j At. pose proof At as Hj. apply (pinv_at r' t _ j (s_p r' HS')) in Hj.
  rewrite Ei, nth_error_map in Hj. destruct (nth_error (idxk r (S k')) j) as [t0|] eqn:E0; [|discriminate].
  apply (pinv_at r t0 _ j (s_p r HS)) in E0.
  specialize (F t0 k' j E0). unfold faces in *. rewrite At. rewrite E0 in F.
  unfold bndk in *. rewrite Eb. fold (idxk r' k'). rewrite Ei, names_of_col_map, map_length. exact F.
Qed.

Theorem forceDelete_cinv r s r' x : cinv r -> cofaces r s = [] -> forceDeleteSimplex r s = (r', x) -> cinv r'.
Proof.
  intros [HS F] Hco H. destruct x as [[]|e].
  2: { apply forceDeleteSimplex_atomic in H. destruct H as [-> _]. split; auto. }
  destruct (assoc s (r_simp r)) as [[k i]|] eqn:As; [|unfold forceDeleteSimplex in H; rewrite As in H; discriminate].
  apply (f_equal fst) in H. cbn [fst] in H. subst r'.
  split; [exact (d_sinv r s k i HS As)|].
  intros t k' j At. destruct (d_sub r s k i HS As t (assoc_contains _ _ _ _ At)) as [Hc Hne].
  apply containsSimplex_assoc in Hc. destruct Hc as (kt & it & A0).
  destruct (d_pos r s k i HS As t kt it Hne A0) as (_ & At' & _). rewrite At in At'. injection At' as <- _.
  destruct (d_faces r s k i HS As t (S k') it Hne A0) as [_ Hsame].
  rewrite Hsame; [eapply F; eauto|].
  intros Hin. apply (cofaces_inverse_of_faces r HS t s) in Hin. rewrite Hco in Hin. destruct Hin.
Qed.

Definition del_step (acc : rep * res unit) (t : name) : rep * res unit :=
  match acc with (r', Raise e) => (r', Raise e) | (r', Ok _) => forceDeleteSimplex r' t end.

(* Any property that implies the shape invariant and survives the deletion of a simplex nothing
   has as a face survives deleteSimplex: along a list that names simplices of the complex, each
   after all its cofaces, the next simplex to go has no coface left, and the rest of the list
   keeps these properties. *)
Section DeleteAny.
  Variable I : rep -> Prop.
  Hypothesis I_sinv : forall r, I r -> sinv r.
  Hypothesis I_forceDelete : forall r s r' x, I r -> cofaces r s = [] -> forceDeleteSimplex r s = (r', x) -> I r'.

  Lemma fold_delete_inv : forall L rc,
    I rc -> NoDup L -> (forall t, In t L -> containsSimplex rc t = true) ->
    (forall i t u, nth_error L i = Some t -> In u (cofaces rc t) -> exists j, j < i /\ nth_error L j = Some u) ->
    forall r' x, fold_left del_step L (rc, Ok tt) = (r', x) -> I r'.
  Proof.
    induction L as [|t L IH]; intros rc Hc Hnd Hin Hco r' x H; simpl in H.
    - now injection H as <- _.
    - inversion Hnd as [|y ys Hy Hys]; subst.
      assert (Hco0 : cofaces rc t = []).
      { destruct (cofaces rc t) as [|u l] eqn:E; [reflexivity|]. exfalso.
        destruct (Hco 0 t u eq_refl) as (j & Hj & _); [rewrite E; now left | lia]. }
      destruct (proj1 (containsSimplex_assoc rc t) (Hin t (or_introl eq_refl))) as (k & i & At).
      pose proof (del_ok rc t k i At) as Hok. rewrite Hok in H.
      set (r1 := fst (forceDeleteSimplex rc t)) in *.
      assert (Hne : forall t', In t' L -> t' <> t) by (intros t' Ht' ->; contradiction).
      refine (IH r1 (I_forceDelete rc t r1 (Ok tt) Hc Hco0 Hok) Hys _ _ r' x H).
      + intros t' Ht'. destruct (proj1 (containsSimplex_assoc rc t') (Hin t' (or_intror Ht'))) as (k2 & i2 & A2).
        destruct (d_pos rc t k i (I_sinv rc Hc) At t' k2 i2 (Hne t' Ht') A2) as (_ & A' & _).
        exact (assoc_contains _ _ _ _ A').
      + intros i' t' u Hi' Hu. assert (Ht' : In t' L) by (eapply nth_error_In; eauto).
        apply (d_cofaces rc t k i (I_sinv rc Hc) At t' (Hne t' Ht') (Hin t' (or_intror Ht')) u) in Hu.
        destruct Hu as [Hu Hut]. destruct (Hco (S i') t' u Hi' Hu) as ([|j] & Hj & Hju).
        * simpl in Hju. congruence.
        * exists j. split; [lia | exact Hju].
  Qed.

  Theorem deleteSimplex_inv r s r' x : I r -> deleteSimplex r s = (r', x) -> I r'.
  Proof.
    intros Hc H. unfold deleteSimplex in H.
    destruct (partOf r s true false) as [L|e] eqn:EP; [|now injection H as <- _].
    assert (Hk : exists k is, assoc s (r_simp r) = Some (k, is)).
    { unfold partOf, orderOf in EP. destruct (assoc s (r_simp r)) as [[k is]|]; [eauto | discriminate]. }
    destruct Hk as (k & is & As).
    destruct (star_positions r (I_sinv r Hc) s k is L As EP) as (Hnd & Hin & Hpos).
    exact (fold_delete_inv L r Hc Hnd Hin Hpos r' x H).
  Qed.
End DeleteAny.

Lemma fold_delete_cinv : forall (L : list name) rc,
  cinv rc -> NoDup L -> (forall t, In t L -> containsSimplex rc t = true) ->
  (forall i t u, nth_error L i = Some t -> In u (cofaces rc t) -> exists j, j < i /\ nth_error L j = Some u) ->
  forall r' x, fold_left del_step L (rc, Ok tt) = (r', x) -> cinv r'.
Proof. exact (fold_delete_inv cinv c_s forceDelete_cinv). Qed.

Theorem deleteSimplex_cinv r s r' x : cinv r -> deleteSimplex r s = (r', x) -> cinv r'.
Proof. exact (deleteSimplex_inv cinv c_s forceDelete_cinv r s r' x). Qed.
