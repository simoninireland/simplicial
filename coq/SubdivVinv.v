(* SubdivVinv.v -- barycentric subdivision keeps the vertex-set reading (C01): when barycentricSubdivide of a simplex of
   a complex that meets it succeeds, the result meets it.  The new point is not a point of the simplex, so every basis
   handed to addSimplexWithBasis is duplicate-free with at least two elements.  Plain Coq. *)
From Coq Require Import String ZArith Bool Arith List Lia.
From SV Require Import Names NamesFacts ListFacts Rep Fresh Complex Atomic RepInv Shapes Incidence AddEffect
                       Closed ClosedReach FoldRes AddBasis BasisInv VInv AwbSpec VSets FiltProofs.
Import ListNotations.
Open Scope nat_scope.

Theorem barycentricSubdivide_vinv r s pts r' mid : vinv r -> barycentricSubdivide r s pts = (r', Ok mid) -> vinv r'.
Proof.
  intros Vr H. unfold barycentricSubdivide in H.
  destruct (containsSimplex r s) eqn:Cs; [|discriminate]. cbn [negb] in H.
  destruct (orderOf r s) as [[|k]|e] eqn:Eo; try discriminate.
  destruct (addSimplex r [] None None) as [r1 [m|e]] eqn:E1; [|discriminate].
  destruct (add_point_spec r None None r1 m Vr E1) as (V1 & Hnew & _ & _ & [Hold _]).
  destruct (Hold s Cs) as (_ & _ & _ & Bs).
  set (P := if seteq pts (basisOf r1 s) && nodupb pts then pts else basisOf r1 s) in *.
  assert (HP : NoDup P /\ sameset P (basisOf r s)).
  { unfold P. destruct (seteq pts (basisOf r1 s) && nodupb pts) eqn:E.
    - apply andb_prop in E. destruct E as [E1' E2]. split; [now apply nodupb_NoDup|]. rewrite <- Bs. now apply seteq_sameset.
    - split; [apply basis_nodup, vinv_pinv, V1|]. rewrite Bs. apply sameset_refl. }
  destruct HP as [NP SP].
  apply containsSimplex_assoc in Cs. destruct Cs as (k0 & j0 & As).
  assert (k0 = S k) by (unfold orderOf in Eo; rewrite As in Eo; now injection Eo). subst k0.
  assert (LP : length P = S (S k)).
  { rewrite <- (v_card r Vr s (S k) j0 As). apply NoDup_same_length; [exact NP | apply basis_nodup, vinv_pinv, Vr | exact SP]. }
  assert (MP : ~ In m P).
  { intros Hin. apply SP in Hin. destruct (basis_in_points r s m (vinv_pinv r Vr) Hin) as (i & Am).
    rewrite (assoc_contains r m _ _ Am) in Hnew. discriminate. }
  destruct (deleteSimplex r1 s) as [r2 [[]|e]] eqn:E2; [|discriminate].
  assert (V2 : vinv r2) by (eapply deleteSimplex_vinv; eauto).
  (* the loop over the facets of P: each basis handed over is duplicate-free and has k+2 >= 2 elements *)
  set (f := fun (r0 : rep) (_ : unit) idx =>
              match c_addSimplexWithBasis r0 (remove_nth idx P ++ [m]) None None with
              | (r'', Raise e) => (r'', Raise e)
              | (r'', Ok _) => (r'', Ok tt)
              end).
  change (fold_left _ (seq 0 (length P)) (r2, Ok tt)) with (fold_left (lift_res f) (seq 0 (length P)) (r2, Ok tt)) in H.
  destruct (fold_left (lift_res f) (seq 0 (length P)) (r2, Ok tt)) as [r3 [x3|e3]] eqn:EF; [|discriminate].
  injection H as <- _.
  refine (fold_res_inv f (fun _ r0 _ => vinv r0) (seq 0 (length P)) _ [] r2 tt r3 x3 V2 EF).
  intros _ r0 u i r4 u' Hi V0 EA. unfold f in EA.
  destruct (c_addSimplexWithBasis r0 (remove_nth i P ++ [m]) None None) as [r4' [n|e]] eqn:EB; [|discriminate]. injection EA as <-.
  apply in_seq in Hi.
  destruct (addSimplexWithBasis_spec r0 (remove_nth i P ++ [m]) None None r4' n V0) as (V4 & _); auto.
  - apply NoDup_app_snoc; [now apply NoDup_remove_nth|]. intros Hin. apply MP. eapply In_remove_nth; eauto.
  - rewrite app_length, (length_remove_nth P i) by lia. simpl. lia.
Qed.
