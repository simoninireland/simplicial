(* TwoOnes.v -- in a complex built by public operations every column of the order-1 boundary
   operator has exactly two ones (an edge has two distinct end points).  Plain Coq. *)
From Coq Require Import String ZArith Bool Arith List Lia.
From SV Require Import Names Rep RepInv Shapes Incidence AddEffect Closed.
Import ListNotations.
Open Scope nat_scope.

Lemma boundary_nrows r k : sinv r -> S k < r_nord r ->
  nrows (boundaryOperator r (S k)) = length (simplicesOfOrder r k).
Proof.
  intros HS Hk. destruct (boundary_shape r (S k) HS Hk) as [_ H]. rewrite H by lia. simpl. now rewrite Nat.sub_0_r.
Qed.

Definition count_true (l : list bool) : nat := length (filter (fun b => b) l).

Lemma length_names_of_col idx : forall col, length col = length idx -> length (names_of_col idx col) = count_true col.
Proof.
  unfold names_of_col, count_true. induction idx as [|a idx IH]; intros [|b col] H; simpl in *; try discriminate; auto.
  injection H as H. destruct b; simpl; rewrite IH; auto.
Qed.

Lemma one_true col : count_true col = 1 -> exists a, a < length col /\ forall i, nth i col false = (i =? a).
Proof.
  unfold count_true. induction col as [|b col IH]; simpl; intros H; [discriminate|].
  destruct b; simpl in H.
  - injection H as H. exists 0. split; [lia|]. intros [|i]; simpl; [reflexivity|].
    assert (Hall : forall i, nth i col false = false).
    { clear -H. induction col as [|b col IH]; intros [|i]; simpl in *; auto.
      - destruct b; [discriminate | reflexivity].
      - apply IH. destruct b; [discriminate | exact H]. }
    apply Hall.
  - destruct (IH H) as (a & Ha & Hi). exists (S a). split; [lia|]. intros [|i]; simpl; [reflexivity | apply Hi].
Qed.

Lemma two_trues col : count_true col = 2 ->
  exists a b, a < b /\ b < length col /\ forall i, nth i col false = (i =? a) || (i =? b).
Proof.
  unfold count_true. induction col as [|c col IH]; simpl; intros H; [discriminate|].
  destruct c; simpl in H.
  - injection H as H. destruct (one_true col H) as (b & Hb & Hi). exists 0, (S b). split; [lia|]. split; [lia|].
    intros [|i]; simpl; [reflexivity | apply Hi].
  - destruct (IH H) as (a & b & Hab & Hb & Hi). exists (S a), (S b). split; [lia|]. split; [lia|].
    intros [|i]; simpl; [reflexivity | apply Hi].
Qed.

Theorem edge_columns r : cinv r -> 1 < r_nord r ->
  forall j, j < ncols (boundaryOperator r 1) ->
  exists a b, a < b /\ b < nrows (boundaryOperator r 1) /\
    forall i, mentry (boundaryOperator r 1) i j = (i =? a) || (i =? b).
Proof.
  intros [HS F] Hn j Hj. pose proof (s_p r HS) as P.
  assert (EB : boundaryOperator r 1 = bndk r 1).
  { unfold boundaryOperator. simpl. now replace (r_nord r <=? 1) with false by (symmetry; apply Nat.leb_gt; lia). }
  rewrite EB in *.
  destruct (sinv_bnd_dims r 0 HS Hn) as (Hok & Hr & Hc).
  rewrite Hc in Hj.
  destruct (nth_error (idxk r 1) j) as [e|] eqn:Ee; [|apply nth_error_None in Ee; lia].
  assert (Ae : assoc e (r_simp r) = Some (1, j)) by (now apply (pinv_at r e 1 j P)).
  pose proof (F e 0 j Ae) as Hlen. unfold faces in Hlen. rewrite Ae in Hlen.
  assert (Hcl : length (getcol j (bndk r 1)) = length (idxk r 0)).
  { apply (length_getcol _ _ _ j (conj Hok (conj Hr Hc))). exact Hj. }
  rewrite (length_names_of_col _ _ Hcl) in Hlen.
  destruct (two_trues _ Hlen) as (a & b & Hab & Hb & Hi).
  exists a, b. split; [exact Hab|]. split; [rewrite Hr, <- Hcl; exact Hb|].
  intros i. unfold mentry. apply Hi.
Qed.
