(* Rank.v -- the model of _reduceBoundaries computes the rank over GF(2), as specified by
   Mathematical Components' \rank on 'M['F_2]: every pivot step preserves the rank (row / column
   permutations and additions), the result is the partial identity pid_mx r, hence r = \rank. *)
From mathcomp Require Import ssreflect ssrfun ssrbool eqtype ssrnat seq choice fintype finfun bigop finset fingroup perm ssralg zmodp matrix mxalgebra.
From Coq Require Import Lia.
From SV Require Import Homology ListMat SnfCount.
Set Implicit Arguments.
Unset Strict Implicit.
Unset Printing Implicit Defensive.
Import GRing.Theory.
Local Open Scope ring_scope.

Definition F2 := 'F_2.
Definition b2f (b : bool) : F2 := b%:R.
Definition mxf (m n : nat) (f : nat -> nat -> bool) : 'M[F2]_(m, n) := \matrix_(i, j) b2f (f i j).

Lemma b2f_addif c a b : b2f (if c then xorb a b else a) = b2f a + b2f c * b2f b.
Proof. by case: c; case: a; case: b; apply/val_inj. Qed.

Lemma eqb_eqn a b : Nat.eqb a b = (a == b).
Proof. by apply/idP/eqP => [/PeanoNat.Nat.eqb_eq|->]; rewrite ?PeanoNat.Nat.eqb_refl. Qed.
Lemma ltb_ltn a b : Nat.ltb a b = (a < b)%N.
Proof. by apply/idP/ltP => /PeanoNat.Nat.ltb_lt. Qed.

Lemma mxf_ext m n f g : (forall i j, (i < m)%N -> (j < n)%N -> f i j = g i j) -> mxf m n f = mxf m n g.
Proof. by move=> H; apply/matrixP => i j; rewrite !mxE H. Qed.

Section RankInv.
Variables (m n : nat).
Implicit Types A B : 'M[F2]_(m, n).

Lemma rank_rows_add A B (x : 'I_m) (c : 'I_m -> F2) :
  c x = 0 -> (forall k, row k B = row k A + c k *: row x A) -> \rank B = \rank A.
Proof.
move=> cx H; apply/eqP; rewrite eqn_leq; apply/andP; split; apply: mxrankS; apply/row_subP=> k.
- by rewrite H addmx_sub ?row_sub // scalemx_sub ?row_sub.
- have Hx : row x B = row x A by rewrite H cx scale0r addr0.
  have -> : row k A = row k B - c k *: row x B by rewrite H Hx addrK.
  by rewrite addmx_sub ?row_sub // eqmx_opp scalemx_sub ?row_sub.
Qed.

Lemma rank_rows_perm A B (s : 'S_m) : (forall k, row k B = row (s k) A) -> \rank B = \rank A.
Proof.
move=> H; apply/eqP; rewrite eqn_leq; apply/andP; split; apply: mxrankS; apply/row_subP=> k.
- by rewrite H row_sub.
- by rewrite -[k](permKV s) -H row_sub.
Qed.
End RankInv.

Lemma rank_cols_add m n (A B : 'M[F2]_(m, n)) (x : 'I_n) (c : 'I_n -> F2) :
  c x = 0 -> (forall k, col k B = col k A + c k *: col x A) -> \rank B = \rank A.
Proof.
move=> cx H; rewrite -(mxrank_tr B) -(mxrank_tr A).
apply: (@rank_rows_add _ _ _ _ x c cx) => k.
by rewrite -!tr_col H linearD linearZ.
Qed.

Lemma rank_cols_perm m n (A B : 'M[F2]_(m, n)) (s : 'S_n) :
  (forall k, col k B = col (s k) A) -> \rank B = \rank A.
Proof.
move=> H; rewrite -(mxrank_tr B) -(mxrank_tr A).
by apply: (@rank_rows_perm _ _ _ _ s) => k; rewrite -!tr_col H.
Qed.

Lemma perm_of m (sg : nat -> nat) :
  (forall i, (i < m)%N -> (sg i < m)%N) ->
  (forall i i', (i < m)%N -> (i' < m)%N -> sg i = sg i' -> i = i') ->
  exists s : 'S_m, forall i : 'I_m, s i = sg i :> nat.
Proof.
case: m => [|m] Hb Hi; first by exists 1%g; case.
pose s' (i : 'I_m.+1) : 'I_m.+1 := inord (sg i).
have s'E i : s' i = sg i :> nat by rewrite inordK ?Hb.
have s'_inj : injective s'.
  by move=> i i' /(congr1 (@nat_of_ord _)); rewrite !s'E => E; apply/val_inj/Hi/E; exact: ltn_ord.
by exists (perm s'_inj) => i; rewrite permE.
Qed.

Lemma rank_reindex_rows m n (g : nat -> nat -> bool) (sg : nat -> nat) :
  (forall i, (i < m)%N -> (sg i < m)%N) ->
  (forall i i', (i < m)%N -> (i' < m)%N -> sg i = sg i' -> i = i') ->
  \rank (mxf m n (fun i j => g (sg i) j)) = \rank (mxf m n g).
Proof.
move=> Hb Hi; have [s Hs] := perm_of Hb Hi.
by apply: (@rank_rows_perm _ _ _ _ s) => k; apply/rowP => j; rewrite !mxE Hs.
Qed.

Lemma rank_reindex_cols m n (g : nat -> nat -> bool) (tau : nat -> nat) :
  (forall j, (j < n)%N -> (tau j < n)%N) ->
  (forall j j', (j < n)%N -> (j' < n)%N -> tau j = tau j' -> j = j') ->
  \rank (mxf m n (fun i j => g i (tau j))) = \rank (mxf m n g).
Proof.
move=> Hb Hi; have [s Hs] := perm_of Hb Hi.
by apply: (@rank_cols_perm _ _ _ _ s) => k; apply/colP => i; rewrite !mxE Hs.
Qed.

Lemma sw_bound m x k i : (x < m)%N -> (k < m)%N -> (i < m)%N -> (sw x k i < m)%N.
Proof. by move=> /ltP Hx /ltP Hk /ltP Hi; apply/ltP; exact: sw_range. Qed.

Lemma sw_inj x k : injective (sw x k).
Proof. exact: can_inj (sw_invol x k). Qed.

Lemma rank_rsw m n x k f : (x < m)%N -> (k < m)%N -> \rank (mxf m n (rsw x k f)) = \rank (mxf m n f).
Proof. by move=> Hx Hk; apply: rank_reindex_rows => [i|i i' _ _]; [exact: sw_bound | exact: sw_inj]. Qed.

Lemma rank_csw m n x l f : (x < n)%N -> (l < n)%N -> \rank (mxf m n (csw x l f)) = \rank (mxf m n f).
Proof. by move=> Hx Hl; apply: rank_reindex_cols => [j|j j' _ _]; [exact: sw_bound | exact: sw_inj]. Qed.

Lemma rank_radd_by m n x (c : nat -> bool) (f : nat -> nat -> bool) : (x < m)%N ->
  \rank (mxf m n (fun i j => if Nat.ltb x i && c i then xorb (f i j) (f x j) else f i j)) = \rank (mxf m n f).
Proof.
move=> Hx.
apply: (@rank_rows_add _ _ _ _ (Ordinal Hx) (fun i : 'I_m => b2f (Nat.ltb x i && c i))) => [|i].
- by rewrite /= ltb_ltn ltnn.
- by apply/rowP => j; rewrite !mxE b2f_addif.
Qed.

Lemma rank_cadd_by m n x (c : nat -> bool) (f : nat -> nat -> bool) : (x < n)%N ->
  \rank (mxf m n (fun i j => if Nat.ltb x j && c j then xorb (f i j) (f i x) else f i j)) = \rank (mxf m n f).
Proof.
move=> Hx.
apply: (@rank_cols_add _ _ _ _ (Ordinal Hx) (fun j : 'I_n => b2f (Nat.ltb x j && c j))) => [|j].
- by rewrite /= ltb_ltn ltnn.
- by apply/colP => i; rewrite !mxE b2f_addif.
Qed.

Lemma rank_step m n x k l f : (x < m)%N -> (k < m)%N -> (x < n)%N -> (l < n)%N ->
  \rank (mxf m n (stepf x k l f)) = \rank (mxf m n f).
Proof.
move=> Hx Hk Hxn Hl.
by rewrite [LHS]rank_cadd_by // [LHS]rank_radd_by // rank_csw // rank_rsw.
Qed.

Lemma rank_pidform m n r D : pidform m n r D -> \rank (mxf m n (entry D)) = r.
Proof.
move=> [_ [/leP Hm [/leP Hn He]]]; rewrite (_ : mxf m n (entry D) = pid_mx r) ?rank_pid_mx //.
by apply/matrixP => i j; rewrite !mxE He ?eqb_eqn ?ltb_ltn //; apply/ltP.
Qed.

Section Reduce.
Variables (rb cb : nat) (L : Type).

(* the invariant: block form diag(I_x, M') and the rank of the input *)
Lemma reduce_pid M (cls : list (list L)) : wfm rb cb M ->
  pidform rb cb (\rank (mxf rb cb (entry M))) (fst (reduceB rb cb M cls)).
Proof.
move=> HM.
pose P x M' (_ : list (list L)) :=
  block rb cb x (entry M') /\ \rank (mxf rb cb (entry M')) = \rank (mxf rb cb (entry M)).
have Pstep (x k l : nat) M' cls' : wfm rb cb M' -> (x <= k /\ k < rb)%coq_nat -> (x <= l /\ l < cb)%coq_nat ->
    entry M' k l = true -> P x M' cls' ->
    P (S x) (fst (reduce_step x k l M' cls')) (snd (reduce_step x k l M' cls')).
  move=> HM' Hk Hl Hp [Hb Hr].
  have He i j : (i < rb)%coq_nat -> (j < cb)%coq_nat ->
      entry (fst (reduce_step x k l M' cls')) i j = stepf x k l (entry M') i j.
    exact: step_entries.
  split; first by move=> i j Hi Hj Hor; rewrite He //; exact: (@stepf_block rb cb x k l _ Hb Hk Hl Hp).
  rewrite -Hr (@mxf_ext _ _ _ (stepf x k l (entry M'))); last by move=> i j /ltP Hi /ltP Hj; exact: He.
  by apply: rank_step; apply/ltP; lia.
have P0 : P 0%N M cls by split=> // i j _ _ [] H; lia.
have [HD [r [Hr [[Hb <-] Hend]]]] := @reduce_invariant rb cb L P Pstep (Nat.min rb cb) 0 M cls HM P0.
suff Hpid : pidform rb cb r (fst (reduceB rb cb M cls)) by rewrite (rank_pidform Hpid).
apply: block_pidform => //; try lia.
case: Hend => [->|Hn] i j Hi Hj Hri Hrj; first by lia.
exact: (@find_pivot_none rb cb r _ HD Hn).
Qed.

(* C06 / C07: for every 0/1 matrix of any shape, the reduced matrix is the partial identity of
   size r, and r is the GF(2) rank of the input *)
Theorem reduce_rank M (cls : list (list L)) : wfm rb cb M ->
  let D := fst (reduceB rb cb M cls) in
  let r := \rank (mxf rb cb (entry M)) in
  wfm rb cb D /\ forall i j, (i < rb)%coq_nat -> (j < cb)%coq_nat -> entry D i j = (i == j) && (i < r)%N.
Proof.
move=> HM /=; have [HD [_ [_ He]]] := reduce_pid cls HM.
by split=> // i j Hi Hj; rewrite He // eqb_eqn ltb_ltn.
Qed.
End Reduce.
