(* AttrFrame.v -- the attribute frame of the mutators (C02): adding -- directly, by basis, ensuring a basis,
   in bulk -- leaves every simplex that was there with the dictionary (the same object) it had, and the new
   simplex of addSimplex gets the dictionary it was given (or one of its own); deleting -- one simplex, by
   basis, several, restricting -- leaves every survivor with the dictionary it had.  None of these operations
   takes the heap of dictionaries, so no content changes either.  Plain Coq. *)
From Coq Require Import String ZArith Bool Arith List Lia.
From SV Require Import Names NamesFacts ListFacts Rep Fresh Complex Atomic RepInv Shapes Incidence AddEffect.
From SV Require Import DelEffect DeleteEffect StarOrder Closed ReachGen ClosedReach VInv AttrInv.
From SV Require EulerInt.
Import ListNotations.
Open Scope nat_scope.

Definition keeps_old (r0 r : rep) : Prop :=
  ainv r /\ forall t, containsSimplex r0 t = true -> containsSimplex r t = true /\ assoc t (r_attr r) = assoc t (r_attr r0).

Lemma keeps_old_refl r : ainv r -> keeps_old r r.
Proof. intros A. split; [exact A|]. auto. Qed.

Lemma keeps_old_same_obs r0 r r' : same_obs r r' -> keeps_old r0 r -> keeps_old r0 r'.
Proof.
  intros Hs [A K]. split; [eapply ainv_same_obs; eauto|]. destruct Hs as (_ & _ & Hsimp & _ & _ & _ & Ha).
  intros t Ct. unfold containsSimplex. rewrite Hsimp, Ha. now apply K.
Qed.

Theorem addSimplex_attr r fs id attr r' n : ainv r -> addSimplex r fs id attr = (r', Ok n) ->
  (forall t, containsSimplex r t = true -> containsSimplex r' t = true /\ assoc t (r_attr r') = assoc t (r_attr r)) /\
  exists h, assoc n (r_attr r') = Some h /\ (attr = Some h \/ (attr = None /\ fst h = r_uid r)).
Proof.
  intros A H. destruct (addSimplex_attr_snoc r fs id attr r' n A H) as (h & Ha & An & Hh & Hall). split.
  - intros t Ct. split; [rewrite Hall, Ct; reflexivity|]. rewrite Ha.
    destruct (assoc t (r_attr r)) as [v|] eqn:At; [now apply assoc_old|]. apply (a_dom r A) in At. congruence.
  - exists h. split; [|exact Hh]. rewrite Ha. now apply assoc_new.
Qed.

Lemma addSimplex_keeps_old r0 r fs id attr r' x : keeps_old r0 r -> addSimplex r fs id attr = (r', x) -> keeps_old r0 r'.
Proof.
  intros [A K] H. destruct x as [n|e].
  2: { apply addSimplex_atomic in H. destruct H as [Hs _]. eapply keeps_old_same_obs; eauto. split; auto. }
  split; [eapply addSimplex_ainv; eauto|]. destruct (addSimplex_attr r fs id attr r' n A H) as [Hold _].
  intros t Ct. destruct (K t Ct) as [C1 E1]. destruct (Hold t C1) as [C2 E2]. split; [exact C2|congruence].
Qed.

Section AddFamily.
  Variable r0 : rep.
  Let I := keeps_old r0.
  Let I_so : forall r r', same_obs r r' -> I r -> I r' := keeps_old_same_obs r0.
  Let I_add : forall r fs id attr r' x, I r -> addSimplex r fs id attr = (r', x) -> I r' := addSimplex_keeps_old r0.

  Theorem addSimplexWithBasis_keeps_old bs id attr r' x : ainv r0 -> c_addSimplexWithBasis r0 bs id attr = (r', x) -> keeps_old r0 r'.
  Proof. intros A H. apply (addSimplexWithBasis_I I) in H; auto. now apply keeps_old_refl. Qed.

  Theorem ensureBasis_keeps_old bs attr r' x : ainv r0 -> c_ensureBasis r0 bs attr = (r', x) -> keeps_old r0 r'.
  Proof. intros A H. apply (ensureBasis_I I) in H; auto. now apply keeps_old_refl. Qed.

  Theorem addSimplicesFrom_keeps_old hp src rn hp' r' st x : ainv r0 -> addSimplicesFrom hp r0 src rn = (hp', r', st, x) -> keeps_old r0 r'.
  Proof. intros A H. apply (addSimplicesFrom_I I) in H; auto. now apply keeps_old_refl. Qed.
End AddFamily.

(* the second conjunct is EulerInt.aframe r0 r, written out *)
Definition survivors_keep (r0 r : rep) : Prop :=
  ainv r /\ forall t, containsSimplex r t = true -> containsSimplex r0 t = true /\ assoc t (r_attr r) = assoc t (r_attr r0).

Lemma survivors_refl r : ainv r -> survivors_keep r r.
Proof. intros A. split; [exact A|]. auto. Qed.

Lemma forceDelete_survivors r0 r s r' x : survivors_keep r0 r -> cofaces r s = [] -> forceDeleteSimplex r s = (r', x) -> survivors_keep r0 r'.
Proof.
  intros [A K] Hco H. split; [eapply forceDelete_ainv; eauto|].
  exact (EulerInt.aframe_trans _ _ _ K (EulerInt.forceDelete_aframe r s r' x (ainv_sinv r A) H)).
Qed.

Theorem deleteSimplex_survivors r0 r s r' x : survivors_keep r0 r -> deleteSimplex r s = (r', x) -> survivors_keep r0 r'.
Proof.
  apply (deleteSimplex_inv (survivors_keep r0)); [|exact (forceDelete_survivors r0)].
  intros r1 [Hv _]. now apply ainv_sinv.
Qed.

Theorem deleteSimplex_attr r s r' x : ainv r -> deleteSimplex r s = (r', x) -> survivors_keep r r'.
Proof. intros A. apply deleteSimplex_survivors. now apply survivors_refl. Qed.
Theorem deleteSimplexWithBasis_attr r bs r' x : ainv r -> deleteSimplexWithBasis r bs = (r', x) -> survivors_keep r r'.
Proof. intros A. apply (deleteSimplexWithBasis_I (survivors_keep r) (deleteSimplex_survivors r)). now apply survivors_refl. Qed.
Theorem deleteSimplices_attr r ss r' x : ainv r -> deleteSimplices r ss = (r', x) -> survivors_keep r r'.
Proof. intros A. apply (deleteSimplices_I (survivors_keep r) (deleteSimplex_survivors r)). now apply survivors_refl. Qed.
Theorem restrictBasisTo_attr r bs r' x : ainv r -> restrictBasisTo r bs = (r', x) -> survivors_keep r r'.
Proof. intros A. apply (restrictBasisTo_I (survivors_keep r) (deleteSimplex_survivors r)). now apply survivors_refl. Qed.
