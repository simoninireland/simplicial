(* FiltCinv.v -- the complex under a filtration is closed (k+1 faces per simplex) at every point of
   every filtration history.  Plain Coq. *)
From Coq Require Import String ZArith Bool Arith List Lia.
From SV Require Import Names FoldRes Rep Complex StarOrder Closed VInv Filtration FiltProofs FiltClosed.
Import ListNotations.
Open Scope nat_scope.

Lemma f_fold_raise (l : list name) f e : fold_left f_del_step l (f, Raise e) = (f, Raise e).
Proof. exact (fold_res_raise (fun g (_ : unit) t => f_forceDelete g t) l f e). Qed.
Lemma f_rep_raise_closed (l : list name) f e : f_rep (fst (fold_left f_del_step l (f, Raise e))) = f_rep f.
Proof. now rewrite f_fold_raise. Qed.

(* the representation under the filtration goes through a prefix of the plain deletion fold *)
Lemma f_fold_prefix : forall (L : list name) f f' x, fold_left f_del_step L (f, Ok tt) = (f', x) ->
  exists L1 L2 x', L = L1 ++ L2 /\ fold_left del_step L1 (f_rep f, Ok tt) = (f_rep f', x').
Proof.
  induction L as [|t L IH]; intros f f' x H; simpl in H.
  - injection H as <- _. exists [], [], (Ok tt). split; reflexivity.
  - destruct (f_forceDelete f t) as [f1 x1] eqn:E1.
    destruct (f_forceDelete_cases _ _ _ _ E1) as [(e & _ & -> & ->)|(r' & E & [(_ & -> & ->)|(i & inc & mo & _ & -> & ->)])].
    + rewrite f_fold_raise in H. injection H as <- _. exists [], (t :: L), (Ok tt). split; reflexivity.
    + rewrite f_fold_raise in H. injection H as <- _. exists [t], L, (Ok tt). split; [reflexivity|]. simpl. now rewrite E.
    + destruct (IH _ f' x H) as (L1 & L2 & x' & -> & HL).
      exists (t :: L1), L2, x'. split; [reflexivity|]. simpl. rewrite E. exact HL.
Qed.

Theorem f_deleteSimplex_cinv f s f' x : cinv (f_rep f) -> f_deleteSimplex f s = (f', x) -> cinv (f_rep f').
Proof.
  intros Hc H. destruct (f_deleteSimplex_cases _ _ _ _ H) as [->|(L & EP & EL)]; [exact Hc|].
  assert (Hk : exists k is, assoc s (r_simp (f_rep f)) = Some (k, is)).
  { unfold partOf, orderOf in EP. destruct (assoc s (r_simp (f_rep f))) as [[k is]|]; [eauto | discriminate]. }
  destruct Hk as (k & is & As).
  destruct (star_positions (f_rep f) (c_s _ Hc) s k is L As EP) as (Hnd & Hin & Hpos).
  destruct (f_fold_prefix L f f' x EL) as (L1 & L2 & x' & -> & HL).
  refine (fold_delete_any cinv (fun r0 H0 => c_s r0 H0) forceDelete_cinv L1 (f_rep f) Hc _ _ _ (f_rep f') x' HL).
  - clear -Hnd. induction L1 as [|a l IH]; [constructor|]. simpl in Hnd. inversion Hnd as [|? ? Ha Hl]; subst.
    constructor; [intros Hc; apply Ha; apply in_or_app; now left|now apply IH].
  - intros t Ht. apply Hin. apply in_or_app. now left.
  - intros i t u Hi Hu. assert (Hil : i < length L1) by (apply nth_error_Some; congruence).
    destruct (Hpos i t u) as (j & Hj & Hju); [rewrite nth_error_app1; auto|exact Hu|].
    exists j. split; [exact Hj|]. rewrite nth_error_app1 in Hju by lia. exact Hju.
Qed.

Theorem f_addSimplex_cinv f fs id attr f' x : cinv (f_rep f) -> f_addSimplex f fs id attr = (f', x) -> cinv (f_rep f').
Proof.
  intros Hc H. destruct (f_addSimplex_rep _ _ _ _ _ _ H) as [->|[y E]]; [exact Hc|]. eapply addSimplex_cinv; eauto.
Qed.

Theorem filtration_history_cinv uid i0 ops : cinv (f_rep (fold_left fstep ops (new_filt uid i0))).
Proof.
  apply (history_I (fun f => cinv (f_rep f))).
  - intros f i. now rewrite f_rep_setIndex.
  - exact f_addSimplex_cinv.
  - exact f_deleteSimplex_cinv.
  - apply cinv_empty.
Qed.
