(* Floats.v -- the floating-point parts of the library in Coq's primitive binary64 floats:
   Embedding.distance (Euclidean), the <= eps test of vietorisRipsComplex, and
   TriangularLatticeEmbedding.computePositionOf.  math.pow(x, 2) is modelled as x * x (both are
   correctly rounded products here); int(n / c) and n % c on the small naturals involved are the
   natural quotient and remainder. *)
From Coq Require Import ZArith Uint63 PrimFloat List Arith Bool.
Import ListNotations.
Open Scope float_scope.

Fixpoint sumsq (acc : float) (p q : list float) : float :=
  match p, q with
  | a :: p', b :: q' => sumsq (acc + (b - a) * (b - a)) p' q'
  | _, _ => acc
  end.
(* Embedding.distance, dimension = length of the coordinate lists *)
Definition distance (p q : list float) : float := PrimFloat.sqrt (sumsq 0 p q).
(* the test of vietorisRipsComplex: distance(...) <= eps, ties included *)
Definition close (eps : float) (p q : list float) : bool := PrimFloat.leb (distance p q) eps.

Definition fnat (n : nat) : float := PrimFloat.of_uint63 (Uint63.of_Z (Z.of_nat n)).

(* TriangularLatticeEmbedding.computePositionOf for the n-th point of an nr x nc lattice in an
   h x w box *)
Definition lattice_pos (nr nc : nat) (h w : float) (n : nat) : float * float :=
  let i := Nat.div n nc in
  let j := Nat.modulo n nc in
  let rh := (h + 0) / fnat nr in
  let cw := (w + 0) / fnat (2 * nc) in
  let y := h - rh * fnat i in
  let x := if Nat.even i then cw * fnat (j * 2) else cw * fnat (j * 2 + 1) in
  (x, y).

Definition in_box (h w : float) (p : float * float) : bool :=
  PrimFloat.leb 0 (fst p) && PrimFloat.leb (fst p) w && PrimFloat.leb 0 (snd p) && PrimFloat.leb (snd p) h.
Definition same_pos (p q : float * float) : bool := PrimFloat.eqb (fst p) (fst q) && PrimFloat.eqb (snd p) (snd q).
Fixpoint all_distinct (l : list (float * float)) : bool :=
  match l with [] => true | p :: t => negb (existsb (same_pos p) t) && all_distinct t end.
Definition lattice_ok (nr nc : nat) (h w : float) : bool :=
  let ps := map (lattice_pos nr nc h w) (seq 0 (nr * nc)) in
  forallb (in_box h w) ps && all_distinct ps.

Definition sizes : list (nat * nat) := flat_map (fun r => map (fun c => (r, c)) (seq 1 6)) (seq 1 6).
Definition boxes : list (float * float) := [(1, 1); (2, 3); (0.5, 4); (3.25, 1.5)].

(* every lattice up to 6 x 6, in each of the four boxes: distinct points get distinct positions
   inside the box (computed in the kernel; the bound is part of the statement) *)
Lemma lattice_range_ok :
  forallb (fun rc => forallb (fun hw => lattice_ok (fst rc) (snd rc) (fst hw) (snd hw)) boxes) sizes = true.
Proof. vm_compute. reflexivity. Qed.

Example distance_345 : distance [0; 0] [3; 4] = 5. Proof. vm_compute. reflexivity. Qed.
Example distance_same : distance [1.5; -2; 7] [1.5; -2; 7] = 0. Proof. vm_compute. reflexivity. Qed.
Example distance_1d : distance [2] [-1] = 3. Proof. vm_compute. reflexivity. Qed.
Example close_tie : close 5 [0; 0] [3; 4] = true. Proof. vm_compute. reflexivity. Qed.
Example close_negative : close (-1) [0; 0] [0; 0] = false. Proof. vm_compute. reflexivity. Qed.
