(* TopOrder.v -- "the reported maximum order is the largest order that actually holds a simplex (-1
   when empty)" (C01), for every history of public operations: maxOrder() is r_nord - 1, and the
   invariant is that the order r_nord - 1 is populated.  It survives deletions because a simplex of
   order k >= 1 has faces (closedness), which stay when it goes.  Plain Coq. *)
From Coq Require Import String ZArith Bool Arith List Lia.
From SV Require Import Names NamesFacts ListFacts Rep Fresh Complex Atomic RepInv Shapes Incidence AddEffect.
From SV Require Import DelEffect StarOrder Closed ReachGen ClosedReach RelabelProofs VInv.
Import ListNotations.
Open Scope nat_scope.

Definition topinv (r : rep) : Prop := forall k, S k = r_nord r -> exists s j, assoc s (r_simp r) = Some (k, j).
Record tcinv (r : rep) : Prop := { t_c : cinv r; t_t : topinv r }.

Lemma tcinv_empty uid : tcinv (empty_rep uid).
Proof. split; [apply cinv_empty|]. intros k H. discriminate. Qed.

Lemma tcinv_same_obs r r' : same_obs r r' -> tcinv r -> tcinv r'.
Proof.
  intros Hs [C T]. apply (cinv_same_obs r r' Hs) in C. rewrite (same_obs_eq r r' Hs) in *. now split.
Qed.

Lemma addSimplex_nord r fs id attr r' n : addSimplex r fs id attr = (r', Ok n) ->
  r_nord r' = Nat.max (r_nord r) (S (length fs - 1)).
Proof.
  intros H. apply addSimplex_eq in H. destruct H as (r2 & h & (_ & Hn & _) & Hk & ->).
  destruct (add_final_keeps (add_struct r2 (length fs - 1)) fs n h (length fs - 1)) as (_ & -> & _).
  now rewrite add_struct_nord, Hn by exact Hk.
Qed.

Theorem addSimplex_tcinv r fs id attr r' x : tcinv r -> addSimplex r fs id attr = (r', x) -> tcinv r'.
Proof.
  revert r fs id attr r' x. apply (addSimplex_lift tcinv tcinv_same_obs). intros r fs id attr r' n [C T] H.
  split; [eapply addSimplex_cinv; eauto|].
  pose proof (addSimplex_nord r fs id attr r' n H) as Hn.
  destruct (addSimplex_effect r fs id attr r' n (c_s r C) H) as (_ & _ & Ho & _ & Hold & _).
  intros k Hk. rewrite Hn in Hk.
  destruct (Nat.le_gt_cases (r_nord r) (S (length fs - 1))) as [Hle|Hgt].
  - assert (k = length fs - 1) by lia. subst k. exists n. now apply orderOf_assoc.
  - destruct (T k ltac:(lia)) as (s & j & A). exists s. apply orderOf_assoc.
    destruct (Hold s (assoc_contains _ _ _ _ A)) as (-> & _). apply orderOf_assoc. eauto.
Qed.

Theorem relabelSimplex_tcinv r s q r' x : tcinv r -> relabelSimplex r s q = (r', x) -> tcinv r'.
Proof.
  revert r s q r' x. apply (relabelSimplex_lift tcinv). intros r s q r' [C T] H.
  assert (C' : cinv r') by (eapply relabelSimplex_cinv; eauto). split; [exact C'|].
  destruct (relabelSimplex_carries r s q r' (s_p r (c_s r C)) H) as (_ & _ & Hn & Hidx & _).
  intros k Hk. rewrite Hn in Hk. destruct (T k Hk) as (t & j & A).
  apply (pinv_at r t k j (s_p r (c_s r C))) in A.
  exists (ren1 s q t), j. apply (pinv_at r' _ k j (s_p r' (c_s r' C'))). rewrite Hidx. now apply map_nth_error.
Qed.

Theorem forceDelete_tcinv r s r' x : tcinv r -> cofaces r s = [] -> forceDeleteSimplex r s = (r', x) -> tcinv r'.
Proof.
  intros [C T] Hco H. destruct x as [[]|e].
  2: { apply forceDeleteSimplex_atomic in H. destruct H as [-> _]. split; auto. }
  split; [eapply forceDelete_cinv; eauto|].
  pose proof (c_s r C) as HS.
  destruct (assoc s (r_simp r)) as [[k i]|] eqn:As; [|unfold forceDeleteSimplex in H; rewrite As in H; discriminate].
  apply (f_equal fst) in H. cbn [fst] in H. subst r'.
  pose proof (d_nord r s k i HS As) as Hn.
  intros k0 Hk0. rewrite Hn in Hk0.
  destruct ((S k =? r_nord r) && (length (remove_nth i (idxk r k)) =? 0)) eqn:Ed.
  - (* the top order emptied: its faces, one order down, are still there *)
    assert (Ek : k = S k0) by lia. rewrite Ek in As. clear Ed. destruct (faces r s) as [|u l] eqn:Ef.
    + pose proof (c_f r C s k0 i As) as Lf. rewrite Ef in Lf. discriminate.
    + destruct (face_order r HS s u (S k0) i As) as (kt' & iu & Ekt & Au); [rewrite Ef; now left|].
      injection Ekt as <-. assert (Ne : u <> s) by (intros ->; rewrite As in Au; injection Au; lia).
      destruct (d_pos r s (S k0) i HS As u k0 iu Ne Au) as (_ & A' & _). eauto.
  - destruct (T k0 Hk0) as (t & j & At). destruct (name_eq_dec t s) as [->|Ne].
    + (* s was not alone in the top order *)
      rewrite As in At. injection At as <- <-.
      apply andb_false_iff in Ed. destruct Ed as [Ed|Ed]; [apply Nat.eqb_neq in Ed; lia|].
      apply Nat.eqb_neq in Ed.
      pose proof (d_idx r s k i HS As k) as Hi. rewrite Nat.eqb_refl in Hi.
      destruct (remove_nth i (idxk r k)) as [|t' l'] eqn:El; [simpl in Ed; lia|].
      exists t', 0. apply (pinv_at _ t' k 0 (s_p _ (d_sinv r s k i HS As))). now rewrite Hi.
    + destruct (d_pos r s k i HS As t k0 j Ne At) as (_ & A' & _). eauto.
Qed.

Theorem deleteSimplex_tcinv r s r' x : tcinv r -> deleteSimplex r s = (r', x) -> tcinv r'.
Proof. exact (deleteSimplex_inv tcinv (fun r0 H => c_s r0 (t_c r0 H)) forceDelete_tcinv r s r' x). Qed.

Local Hint Resolve tcinv_same_obs tcinv_empty addSimplex_tcinv relabelSimplex_tcinv deleteSimplex_tcinv : tcinv.

Lemma pstep_tcinv r o : tcinv r -> tcinv (pstep r o).
Proof. inst pstep_I at tcinv with tcinv. Qed.

Lemma pstep_topinv r o : vinv r -> topinv r -> topinv (pstep r o).
Proof. intros Hv T. apply t_t, pstep_tcinv. split; [exact (vinv_cinv r Hv) | exact T]. Qed.

Theorem public_history_tcinv uid ops : tcinv (fold_left pstep ops (empty_rep uid)).
Proof. inst public_history_I at tcinv with tcinv. Qed.

(* C01: after every history of public operations maxOrder() is the largest order that holds a
   simplex, and -1 exactly when there is none *)
Theorem maxOrder_is_largest_populated_order uid ops :
  let r := fold_left pstep ops (empty_rep uid) in
  (forall s k j, assoc s (r_simp r) = Some (k, j) -> Z.of_nat k <= maxOrder r)%Z /\
  ((maxOrder r = -1)%Z <-> forall s, containsSimplex r s = false) /\
  ((0 <= maxOrder r)%Z -> exists s j, assoc s (r_simp r) = Some (Z.to_nat (maxOrder r), j)).
Proof.
  intros r. pose proof (public_history_tcinv uid ops) as [C T]. fold r in C, T.
  pose proof (s_p r (c_s r C)) as P. unfold maxOrder.
  split; [intros s k j A; apply (pinv_pos_lt r s k j P) in A; lia|]. split; [split|].
  - intros H s. apply containsSimplex_false_assoc. destruct (assoc s (r_simp r)) as [[k j]|] eqn:A; [|reflexivity].
    apply (pinv_pos_lt r s k j P) in A. lia.
  - intros H. destruct (r_nord r) as [|n] eqn:En; [reflexivity|]. exfalso.
    destruct (T n ltac:(lia)) as (s & j & A). apply assoc_contains in A. congruence.
  - intros H. destruct (r_nord r) as [|n] eqn:En; [lia|]. destruct (T n ltac:(lia)) as (s & j & A).
    exists s, j. replace (Z.to_nat (Z.of_nat (S n) - 1)) with n by lia. exact A.
Qed.
