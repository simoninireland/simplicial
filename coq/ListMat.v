(* ListMat.v -- entry-level characterisation of the list operations used by the model of
   _reduceBoundaries (Homology.v): what each step does to the entry function of the matrix and to
   the column labels, that the block form diag(I_x, M') advances by one at every pivot, and the
   induction principle by which every property of the reduction is proved.  Plain Coq (no ssreflect). *)
From Coq Require Import String ZArith Bool Arith List Lia.
From SV Require Import ListFacts Homology.
Import ListNotations.
Open Scope nat_scope.

Definition entry (M : bmat) (i j : nat) : bool := nth j (nth i M []) false.
Definition wfm (rb cb : nat) (M : bmat) : Prop := length M = rb /\ Forall (fun r => length r = cb) M.

Lemma wfm_row rb cb M i : wfm rb cb M -> i < rb -> length (nth i M []) = cb.
Proof.
  intros [HL HF] Hi. rewrite Forall_forall in HF. apply HF. apply nth_In. lia.
Qed.

Lemma wfm_rows rb cb M : length M = rb -> (forall i, i < rb -> length (nth i M []) = cb) -> wfm rb cb M.
Proof.
  intros HL H. split; [exact HL|]. apply Forall_forall. intros r Hr.
  destruct (In_nth _ _ [] Hr) as (i & Hi & <-). apply H. lia.
Qed.

Definition sw (x k i : nat) : nat := if i =? x then k else if i =? k then x else i.

Lemma sw_invol a b i : sw a b (sw a b i) = i.
Proof.
  unfold sw. destruct (i =? a) eqn:E1.
  - apply Nat.eqb_eq in E1. subst. destruct (b =? a) eqn:E2; [now apply Nat.eqb_eq in E2|].
    now rewrite Nat.eqb_refl.
  - destruct (i =? b) eqn:E2.
    + apply Nat.eqb_eq in E2. subst. now rewrite Nat.eqb_refl.
    + now rewrite E1, E2.
Qed.

Lemma sw_range a b i n : a < n -> b < n -> i < n -> sw a b i < n.
Proof. intros. unfold sw. destruct (i =? a); auto. destruct (i =? b); auto. Qed.

Lemma sw_ge x a b i : x <= a -> x <= b -> x <= i -> x <= sw a b i.
Proof. intros. unfold sw. destruct (i =? a); auto. destruct (i =? b); auto. Qed.

Lemma sw_lt x a b i : x <= a -> x <= b -> i < x -> sw a b i = i.
Proof.
  intros. unfold sw. destruct (Nat.eqb_spec i a); [lia|]. destruct (Nat.eqb_spec i b); [lia|]. reflexivity.
Qed.

Lemma nth_swap {A} (d : A) (l : list A) (i j k : nat) :
  i < length l -> j < length l -> nth k (swap d i j l) d = nth (sw i j k) l d.
Proof.
  intros Hi Hj. unfold swap, sw. rewrite nth_set_nth, length_set_nth.
  destruct (k =? i) eqn:Eki.
  - apply Nat.ltb_lt in Hi. rewrite Hi. reflexivity.
  - simpl. rewrite nth_set_nth. apply Nat.ltb_lt in Hj. rewrite Hj.
    destruct (k =? j) eqn:Ekj; simpl; reflexivity.
Qed.

Lemma length_swap {A} (d : A) (l : list A) i j : length (swap d i j l) = length l.
Proof. unfold swap. now rewrite !length_set_nth. Qed.

Lemma length_mapi_from {A B} (f : nat -> A -> B) l : forall s, length (mapi_from s f l) = length l.
Proof. induction l as [|h t IH]; intros s; simpl; auto. Qed.

Lemma nth_mapi_from {A B} (f : nat -> A -> B) (d : A) (d' : B) l : forall s k,
  k < length l -> nth k (mapi_from s f l) d' = f (s + k) (nth k l d).
Proof.
  induction l as [|h t IH]; intros s [|k] Hk; simpl in *; try lia.
  - now rewrite Nat.add_0_r.
  - rewrite IH by lia. f_equal. lia.
Qed.

Lemma length_mapi {A B} (f : nat -> A -> B) l : length (mapi f l) = length l.
Proof. apply length_mapi_from. Qed.

Lemma nth_mapi {A B} (f : nat -> A -> B) (d : A) (d' : B) l k : k < length l -> nth k (mapi f l) d' = f k (nth k l d).
Proof. apply (nth_mapi_from f d d' l 0). Qed.

Lemma length_xor_row a : forall b, length (xor_row a b) = length a.
Proof. induction a as [|x a IH]; intros [|y b]; simpl; auto. Qed.

Lemma nth_xor_row a : forall b j, length a = length b ->
  nth j (xor_row a b) false = xorb (nth j a false) (nth j b false).
Proof.
  induction a as [|x a IH]; intros [|y b] [|j] H; simpl in *; try discriminate; auto.
Qed.

(* the four stages of a reduction step on entry functions: row exchange, column exchange, additions
   of row x, additions of column x *)
Definition rsw (x k : nat) (f : nat -> nat -> bool) i j := f (sw x k i) j.
Definition csw (x l : nat) (f : nat -> nat -> bool) i j := f i (sw x l j).
Definition radd (x : nat) (f : nat -> nat -> bool) i j :=
  if (x <? i) && f i x then xorb (f i j) (f x j) else f i j.
Definition cadd (x : nat) (f : nat -> nat -> bool) i j :=
  if (x <? j) && f x j then xorb (f i j) (f i x) else f i j.
Definition stepf (x k l : nat) (f : nat -> nat -> bool) := cadd x (radd x (csw x l (rsw x k f))).

Section Step.
  Variables (rb cb x k l : nat) (M : bmat) (L : Type) (cls : list (list L)).
  Hypothesis HM : wfm rb cb M.
  Hypothesis Hk : x <= k < rb.
  Hypothesis Hl : x <= l < cb.

  Let M1 := swap [] x k M.
  Let M2 := map (swap false x l) M1.
  Let M3 := mapi (fun i r => if (x <? i) && nth x r false then xor_row r (nth x M2 []) else r) M2.
  Let M4 := map (fun r => mapi (fun j b => if (x <? j) && nth j (nth x M3 []) false
                                           then xorb b (nth x r false) else b) r) M3.

  Lemma wfm_M1 : wfm rb cb M1.
  Proof.
    destruct HM as [HL _]. apply wfm_rows; [unfold M1; now rewrite length_swap|].
    intros i Hi. unfold M1. rewrite nth_swap by lia. apply (wfm_row rb cb _ _ HM). apply sw_range; lia.
  Qed.

  Lemma entry_M1 i j : entry M1 i j = entry M (sw x k i) j.
  Proof. destruct HM as [HL _]. unfold entry, M1. now rewrite nth_swap by lia. Qed.

  Lemma row_M2 i : i < rb -> nth i M2 [] = swap false x l (nth i M1 []).
  Proof. intros Hi. apply nth_map_in. now rewrite (proj1 wfm_M1). Qed.

  Lemma wfm_M2 : wfm rb cb M2.
  Proof.
    apply wfm_rows; [unfold M2; rewrite map_length; apply wfm_M1|].
    intros i Hi. rewrite row_M2, length_swap by exact Hi. exact (wfm_row rb cb _ _ wfm_M1 Hi).
  Qed.

  Lemma entry_M2 i j : i < rb -> entry M2 i j = entry M1 i (sw x l j).
  Proof.
    intros Hi. unfold entry. rewrite row_M2 by exact Hi.
    apply nth_swap; rewrite (wfm_row rb cb _ _ wfm_M1 Hi); lia.
  Qed.

  Lemma row_M3 i : i < rb ->
    nth i M3 [] = if (x <? i) && entry M2 i x then xor_row (nth i M2 []) (nth x M2 []) else nth i M2 [].
  Proof. intros Hi. unfold M3. now rewrite (nth_mapi _ [] []) by (now rewrite (proj1 wfm_M2)). Qed.

  Lemma wfm_M3 : wfm rb cb M3.
  Proof.
    apply wfm_rows; [unfold M3; rewrite length_mapi; apply wfm_M2|].
    intros i Hi. rewrite row_M3 by exact Hi.
    destruct (_ && _); rewrite ?length_xor_row; exact (wfm_row rb cb _ _ wfm_M2 Hi).
  Qed.

  Lemma entry_M3 i j : i < rb -> entry M3 i j = radd x (entry M2) i j.
  Proof.
    intros Hi. unfold entry at 1, radd. rewrite row_M3 by exact Hi.
    destruct (_ && _); [|reflexivity].
    apply nth_xor_row. rewrite !(wfm_row rb cb _ _ wfm_M2) by lia. reflexivity.
  Qed.

  Lemma row_M4 i : i < rb ->
    nth i M4 [] = mapi (fun j b => if (x <? j) && entry M3 x j then xorb b (entry M3 i x) else b) (nth i M3 []).
  Proof. intros Hi. unfold M4. now rewrite (nth_map_in _ [] []) by (now rewrite (proj1 wfm_M3)). Qed.

  Lemma wfm_M4 : wfm rb cb M4.
  Proof.
    apply wfm_rows; [unfold M4; rewrite map_length; apply wfm_M3|].
    intros i Hi. rewrite row_M4, length_mapi by exact Hi. exact (wfm_row rb cb _ _ wfm_M3 Hi).
  Qed.

  Lemma entry_M4 i j : i < rb -> j < cb -> entry M4 i j = cadd x (entry M3) i j.
  Proof.
    intros Hi Hj. unfold entry at 1. rewrite row_M4 by exact Hi.
    now rewrite (nth_mapi _ false false) by (now rewrite (wfm_row rb cb _ _ wfm_M3 Hi)).
  Qed.

  Lemma entries_M3 i j : i < rb -> entry M3 i j = radd x (csw x l (rsw x k (entry M))) i j.
  Proof.
    intros Hi. rewrite entry_M3 by exact Hi. unfold radd.
    rewrite !entry_M2 by lia. now rewrite !entry_M1.
  Qed.

  Lemma step_wfm : wfm rb cb (fst (reduce_step x k l M cls)).
  Proof. exact wfm_M4. Qed.

  Lemma step_entries i j : i < rb -> j < cb ->
    entry (fst (reduce_step x k l M cls)) i j = stepf x k l (entry M) i j.
  Proof.
    intros Hi Hj. change (entry M4 i j = stepf x k l (entry M) i j).
    rewrite entry_M4 by assumption. unfold stepf, cadd. now rewrite !entries_M3 by lia.
  Qed.

  (* the labels follow the column operations: exchange x and l, then append the label of the
     pivot column to that of every column the pivot row has a 1 in *)
  Lemma step_labels j : length cls = cb -> j < cb ->
    nth j (snd (reduce_step x k l M cls)) [] =
    if (x <? j) && radd x (csw x l (rsw x k (entry M))) x j
    then nth (sw x l j) cls [] ++ nth (sw x l x) cls [] else nth (sw x l j) cls [].
  Proof.
    intros Hc Hj.
    change (snd (reduce_step x k l M cls))
      with (mapi (fun j c => if (x <? j) && entry M3 x j then c ++ nth x (swap [] x l cls) [] else c)
                 (swap [] x l cls)).
    rewrite (nth_mapi _ [] []) by (rewrite length_swap; lia).
    rewrite !nth_swap by lia. now rewrite entries_M3 by lia.
  Qed.
End Step.

Lemma step_length {L} x k l M (cls : list (list L)) : length (snd (reduce_step x k l M cls)) = length cls.
Proof. unfold reduce_step. cbn [snd]. now rewrite length_mapi, length_swap. Qed.

Lemma find_in_row_some x row : forall pos l, find_in_row x pos row = Some l ->
  exists j, l = pos + j /\ x <= l /\ j < length row /\ nth j row false = true.
Proof.
  induction row as [|b t IH]; intros pos l H; simpl in H; [discriminate|].
  destruct ((x <=? pos) && b) eqn:E.
  - injection H as <-. apply andb_prop in E. destruct E as [E ->]. apply Nat.leb_le in E.
    exists 0. simpl. repeat split; lia.
  - destruct (IH _ _ H) as (j & -> & H1 & H2 & H3). exists (S j). simpl. repeat split; auto; lia.
Qed.

Lemma find_in_row_none x row : forall pos,
  find_in_row x pos row = None -> forall j, j < length row -> x <= pos + j -> nth j row false = false.
Proof.
  induction row as [|b t IH]; intros pos H j Hj Hx; simpl in *; [lia|].
  destruct ((x <=? pos) && b) eqn:E; [discriminate|].
  destruct j as [|j].
  - destruct b; auto. rewrite andb_true_r in E. apply Nat.leb_gt in E. lia.
  - apply (IH (S pos)); auto; lia.
Qed.

Lemma find_pivot_from_some x M : forall k0 k l, find_pivot_from x k0 M = Some (k, l) ->
  exists i, k = k0 + i /\ i < length M /\ x <= k /\ x <= l /\ l < length (nth i M []) /\ entry M i l = true.
Proof.
  induction M as [|row t IH]; intros k0 k l H; simpl in H; [discriminate|].
  destruct (x <=? k0) eqn:E; [destruct (find_in_row x 0 row) as [l'|] eqn:F|].
  2, 3: destruct (IH _ _ _ H) as (i & -> & H1 & H2); exists (S i); simpl; repeat split; try tauto; lia.
  injection H as <- <-. apply Nat.leb_le in E. destruct (find_in_row_some _ _ _ _ F) as (j & -> & F1 & F2 & F3).
  exists 0. simpl. repeat split; auto; lia.
Qed.

Lemma find_pivot_from_none x M : forall k0,
  find_pivot_from x k0 M = None ->
  forall i j, i < length M -> x <= k0 + i -> x <= j -> j < length (nth i M []) -> entry M i j = false.
Proof.
  induction M as [|row t IH]; intros k0 H i j Hi Hxi Hxj Hj; simpl in *; [lia|].
  destruct i as [|i].
  - destruct (x <=? k0) eqn:E; [|apply Nat.leb_gt in E; lia].
    destruct (find_in_row x 0 row) eqn:F; [discriminate|]. apply (find_in_row_none x row 0 F); auto.
  - apply (IH (S k0)); try lia.
    destruct (x <=? k0); [destruct (find_in_row x 0 row); [discriminate|]|]; exact H.
Qed.

Lemma find_pivot_some rb cb x M k l : wfm rb cb M -> find_pivot x M = Some (k, l) ->
  x <= k < rb /\ x <= l < cb /\ entry M k l = true.
Proof.
  intros HM H. destruct (find_pivot_from_some _ _ _ _ _ H) as (i & -> & H1 & H2 & H3 & H4 & H5).
  rewrite (proj1 HM) in H1. rewrite (wfm_row rb cb _ _ HM) in H4 by lia. auto.
Qed.

Lemma find_pivot_none rb cb x M : wfm rb cb M -> find_pivot x M = None ->
  forall i j, i < rb -> j < cb -> x <= i -> x <= j -> entry M i j = false.
Proof.
  intros HM H i j Hi Hj Hxi Hxj.
  apply (find_pivot_from_none x M 0 H); rewrite ?(wfm_row rb cb _ _ HM), ?(proj1 HM); lia.
Qed.

Lemma reduce_S {L} fuel x M (cls : list (list L)) :
  reduce (S fuel) x M cls =
  match find_pivot x M with
  | None => (M, cls)
  | Some (k, l) => let '(M', cls') := reduce_step x k l M cls in reduce fuel (S x) M' cls'
  end.
Proof. reflexivity. Qed.

Section ReduceInvariant.
  Variables (rb cb : nat) (L : Type) (P : nat -> bmat -> list (list L) -> Prop).
  Hypothesis Pstep : forall x k l M cls,
    wfm rb cb M -> x <= k < rb -> x <= l < cb -> entry M k l = true -> P x M cls ->
    P (S x) (fst (reduce_step x k l M cls)) (snd (reduce_step x k l M cls)).

  (* a property kept by every pivot step holds of the result, at the x the reduction stopped at:
     either the fuel ran out there or no pivot is left *)
  Lemma reduce_invariant fuel : forall x M cls, wfm rb cb M -> P x M cls ->
    wfm rb cb (fst (reduce fuel x M cls)) /\
    exists x', x' <= x + fuel /\ P x' (fst (reduce fuel x M cls)) (snd (reduce fuel x M cls)) /\
               (x' = x + fuel \/ find_pivot x' (fst (reduce fuel x M cls)) = None).
  Proof.
    induction fuel as [|fuel IH]; intros x M cls HM HP.
    - split; [exact HM|]. exists x. rewrite Nat.add_0_r. auto.
    - rewrite reduce_S. destruct (find_pivot x M) as [[k l]|] eqn:Hp.
      + destruct (find_pivot_some rb cb x M k l HM Hp) as (Hk & Hl & Hkl).
        pose proof (Pstep x k l M cls HM Hk Hl Hkl HP) as HP'.
        pose proof (step_wfm rb cb x k l M L cls HM Hk Hl) as HM'.
        destruct (reduce_step x k l M cls) as [M' cls'].
        destruct (IH (S x) M' cls' HM' HP') as (HD & x' & Hle & HPD & Hend).
        split; [exact HD|]. exists x'. rewrite <- Nat.add_succ_comm. auto.
      + split; [exact HM|]. exists x. split; [lia|]. auto.
  Qed.
End ReduceInvariant.

Lemma reduce_keeps rb cb L (Q : bmat -> list (list L) -> Prop) :
  (forall x k l M cls, wfm rb cb M -> x <= k < rb -> x <= l < cb -> entry M k l = true -> Q M cls ->
     Q (fst (reduce_step x k l M cls)) (snd (reduce_step x k l M cls))) ->
  forall fuel x M cls, wfm rb cb M -> Q M cls -> Q (fst (reduce fuel x M cls)) (snd (reduce fuel x M cls)).
Proof.
  intros HQ fuel x M cls HM H.
  destruct (reduce_invariant rb cb L (fun _ => Q) HQ fuel x M cls HM H) as (_ & _ & _ & HD & _). exact HD.
Qed.

Lemma reduce_length {rb cb L} fuel x M (cls : list (list L)) : wfm rb cb M ->
  length (snd (reduce fuel x M cls)) = length cls.
Proof.
  intros HM. apply (reduce_keeps rb cb L (fun _ c => length c = length cls)); auto.
  intros. now rewrite step_length.
Qed.

(* block form diag(I_x, M'): rows and columns below x are those of the identity *)
Definition block (rb cb x : nat) (f : nat -> nat -> bool) : Prop :=
  forall i j, i < rb -> j < cb -> (i < x \/ j < x) -> f i j = (i =? j).

Lemma block_tr rb cb x f : block rb cb x f -> block cb rb x (fun i j => f j i).
Proof. intros H i j Hi Hj Hor. rewrite H by tauto. apply Nat.eqb_sym. Qed.

Lemma block_rsw rb cb x k f : block rb cb x f -> x <= k < rb -> block rb cb x (rsw x k f).
Proof.
  intros H Hk i j Hi Hj Hor. unfold rsw. destruct (Nat.lt_ge_cases i x) as [Hix|Hix].
  - rewrite (sw_lt x) by lia. now apply H.
  - assert (x <= sw x k i) by (apply sw_ge; lia).
    rewrite H by (try apply sw_range; lia).
    destruct (Nat.eqb_spec (sw x k i) j), (Nat.eqb_spec i j); try reflexivity; lia.
Qed.

(* the column operations are the row operations on the transposed matrix *)
Lemma block_csw rb cb x l f : block rb cb x f -> x <= l < cb -> block rb cb x (csw x l f).
Proof.
  intros H Hl. apply (block_tr cb rb x (rsw x l (fun i j => f j i))).
  apply block_rsw; [apply block_tr, H | exact Hl].
Qed.

(* adding the pivot row to the rows below that have a 1 in the pivot column clears that column
   and keeps the block and the pivot row *)
Lemma radd_block rb cb x f : x < rb -> x < cb -> block rb cb x f -> f x x = true ->
  block rb cb x (radd x f) /\ (forall i, i < rb -> radd x f i x = (i =? x)) /\ (forall j, radd x f x j = f x j).
Proof.
  intros Hx Hxc H Hp. split; [|split].
  - intros i j Hi Hj Hor. unfold radd. destruct ((x <? i) && f i x) eqn:E; [|now apply H].
    apply andb_prop in E. destruct E as [E _]. apply Nat.ltb_lt in E.
    rewrite !H by lia. rewrite (proj2 (Nat.eqb_neq x j)) by lia. apply xorb_false_r.
  - intros i Hi. unfold radd. destruct (Nat.ltb_spec x i) as [Hlt|Hge]; simpl.
    + rewrite Hp. destruct (f i x); simpl; symmetry; apply Nat.eqb_neq; lia.
    + destruct (Nat.eq_dec i x) as [->|Hne]; [now rewrite Hp, Nat.eqb_refl | apply H; lia].
  - intros j. unfold radd. now rewrite Nat.ltb_irrefl.
Qed.

Lemma block_S rb cb x f : block rb cb x f ->
  (forall i, i < rb -> f i x = (i =? x)) -> (forall j, j < cb -> f x j = (x =? j)) -> block rb cb (S x) f.
Proof.
  intros H Hc Hr i j Hi Hj Hor.
  destruct (Nat.eq_dec j x) as [->|Hjx]; [now apply Hc|].
  destruct (Nat.eq_dec i x) as [->|Hix]; [now apply Hr|]. apply H; lia.
Qed.

Lemma stepf_block rb cb x k l f : block rb cb x f -> x <= k < rb -> x <= l < cb -> f k l = true ->
  block rb cb (S x) (stepf x k l f).
Proof.
  intros H Hk Hl Hp. unfold stepf. set (g := csw x l (rsw x k f)).
  assert (Hg : block rb cb x g) by (apply block_csw; [apply block_rsw|]; assumption).
  assert (Hgx : g x x = true) by (unfold g, csw, rsw, sw; now rewrite !Nat.eqb_refl).
  assert (Hx : x < rb) by lia. assert (Hxc : x < cb) by lia.
  destruct (radd_block rb cb x g Hx Hxc Hg Hgx) as (H3 & C3 & R3).
  (* cadd x f3 is radd x on the transpose of f3 = radd x g, transposed back *)
  destruct (radd_block cb rb x (fun i j => radd x g j i) Hxc Hx (block_tr _ _ _ _ H3)) as (H4 & C4 & R4).
  { now rewrite R3. }
  apply block_S.
  - exact (block_tr _ _ _ _ H4).
  - intros i Hi. change (radd x (fun i j => radd x g j i) x i = (i =? x)). rewrite R4. now apply C3.
  - intros j Hj. change (radd x (fun i j => radd x g j i) j x = (x =? j)). rewrite C4 by exact Hj. apply Nat.eqb_sym.
Qed.

(* stepf_block with the four stages of stepf written out *)
Section BlockStep.
  Variables (rb cb x k l : nat) (f0 : nat -> nat -> bool).
  Hypothesis Hb : block rb cb x f0.
  Hypothesis Hxk : x <= k. Hypothesis Hk : k < rb.
  Hypothesis Hxl : x <= l. Hypothesis Hl : l < cb.
  Hypothesis Hp : f0 k l = true.

  Let f1 i j := f0 (sw x k i) j.
  Let f2 i j := f1 i (sw x l j).
  Let f3 i j := if (x <? i) && f2 i x then xorb (f2 i j) (f2 x j) else f2 i j.
  Let f4 i j := if (x <? j) && f3 x j then xorb (f3 i j) (f3 i x) else f3 i j.

  Lemma f4_block : block rb cb (S x) f4.
  Proof. exact (stepf_block rb cb x k l f0 Hb (conj Hxk Hk) (conj Hxl Hl) Hp). Qed.
End BlockStep.
