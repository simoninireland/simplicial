(* VSets.v -- what the vertex-set reading (vinv) buys: a complex is closed under non-empty subsets,
   and closure / star are sub- / superset of bases.  Plain Coq. *)
From Coq Require Import String ZArith Bool Arith List Lia.
From SV Require Import Names NamesFacts ListFacts Rep Fresh Complex Atomic RepInv Shapes Incidence AddEffect
                       Closed ClosedReach AddBasis BasisInv Duality DeleteEffect VInv AwbSpec.
Import ListNotations.
Open Scope nat_scope.

Lemma pigeon {A B} (R : A -> B -> Prop) : forall (l : list A) (m : list B),
  NoDup l -> (forall x, In x l -> exists y, In y m /\ R x y) ->
  (forall x x' y, In x l -> In x' l -> R x y -> R x' y -> x = x') -> length l <= length m.
Proof.
  induction l as [|x l IH]; intros m Hnd Hex Hinj; simpl; [lia|].
  inversion Hnd as [|? ? Hx Hl]; subst.
  destruct (Hex x (or_introl eq_refl)) as (y & Hy & Rxy).
  apply in_split in Hy. destruct Hy as (m1 & m2 & ->).
  rewrite app_length. simpl.
  assert (length l <= length (m1 ++ m2)); [|rewrite app_length in *; lia].
  apply IH; auto.
  - intros x' Hx'. destruct (Hex x' (or_intror Hx')) as (y' & Hy' & R').
    exists y'. split; [|exact R']. apply in_app_or in Hy'. apply in_or_app.
    destruct Hy' as [H|[H|H]]; auto. subst y'.
    exfalso. apply Hx. rewrite (Hinj x x' y); auto; [now left | now right].
  - intros a b c Ha Hb. apply Hinj; now right.
Qed.

Lemma all_or_witness {A} (P : A -> Prop) (l : list A) : (forall x, {P x} + {~ P x}) ->
  (forall x, In x l -> P x) \/ exists x, In x l /\ ~ P x.
Proof.
  intros D. destruct (Forall_Exists_dec P D l) as [H|H]; [left; now apply Forall_forall | right; now apply Exists_exists].
Qed.
Lemma incl_or_witness (a b : list name) : incl b a \/ exists p, In p b /\ ~ In p a.
Proof. apply (all_or_witness (fun p => In p a)). intros p. apply in_dec, name_eq_dec. Qed.

Lemma one_short (a b : list name) : NoDup a -> NoDup b -> incl a b -> length b = S (length a) ->
  exists p, In p b /\ ~ In p a /\ forall q, In q b -> q = p \/ In q a.
Proof.
  intros Ha Hb Hi Hl.
  destruct (incl_or_witness a b) as [H|(p & Hp & Hn)]; [pose proof (NoDup_incl_length Hb H); lia|].
  exists p. split; auto. split; auto. intros q Hq.
  assert (Hs : incl b (p :: a)).
  { apply NoDup_length_incl; [constructor; auto| simpl; lia |]. intros z [<-|Hz]; auto. }
  destruct (Hs q Hq); auto.
Qed.

Lemma a_basis_point r : vinv r -> forall t k j p, assoc t (r_simp r) = Some (k, j) -> In p (basisOf r t) ->
  exists i, assoc p (r_simp r) = Some (0, i).
Proof. intros Hv t k j p _. apply basis_in_points, vinv_pinv, Hv. Qed.

Section V.
  Variable r : rep.
  Hypothesis Hv : vinv r.
  Let Hc : cinv r := vinv_cinv r Hv.
  Let Hs : sinv r := vinv_sinv r Hv.
  Let P : pinv r := vinv_pinv r Hv.

  Lemma face_basis_sub t k j u : assoc t (r_simp r) = Some (S k, j) -> In u (faces r t) ->
    incl (basisOf r u) (basisOf r t).
  Proof.
    intros At Hu p Hp. destruct (b_b r (vinv_bcinv r Hv) t (S k) j At) as [_ H]. apply H; [lia|]. eauto.
  Qed.

  Lemma face_drops_one t k j u : assoc t (r_simp r) = Some (S k, j) -> In u (faces r t) ->
    exists p, In p (basisOf r t) /\ ~ In p (basisOf r u) /\ forall q, In q (basisOf r t) -> q = p \/ In q (basisOf r u).
  Proof.
    intros At Hu. destruct (face_is_simplex r Hs t u k j At Hu) as (i & Au).
    apply one_short; try (apply basis_nodup; exact P).
    - eapply face_basis_sub; eauto.
    - rewrite (v_card r Hv t (S k) j At), (v_card r Hv u k i Au). reflexivity.
  Qed.

  Lemma face_without t k j u p : assoc t (r_simp r) = Some (S k, j) -> In u (faces r t) ->
    In p (basisOf r t) -> ~ In p (basisOf r u) -> forall z, In z (basisOf r u) <-> In z (basisOf r t) /\ z <> p.
  Proof.
    intros At Hu Hp Hnp z. destruct (face_drops_one t k j u At Hu) as (a & Ha & Hna & Hall).
    assert (a = p) by (destruct (Hall p Hp); [congruence|contradiction]). subst a. split.
    - intros Hz. split; [eapply face_basis_sub; eauto | intros ->; contradiction].
    - intros [Hz Hzp]. destruct (Hall z Hz); [contradiction | assumption].
  Qed.

  Lemma every_point_dropped t k j p : assoc t (r_simp r) = Some (S k, j) -> In p (basisOf r t) ->
    exists u, In u (faces r t) /\ ~ In p (basisOf r u).
  Proof.
    intros At Hp.
    destruct (all_or_witness (fun u => In p (basisOf r u)) (faces r t)) as [All|(u & Hu & Hn)];
      [intros u; apply in_dec, name_eq_dec | | eauto].
    (* otherwise the k+2 faces drop pairwise different points among the k+1 other than p *)
    exfalso. pose proof (v_card r Hv t (S k) j At) as Lt. pose proof (c_f r Hc t k j At) as Lf.
    pose proof Hp as Hp'. apply in_split in Hp'. destruct Hp' as (m1 & m2 & Em). rewrite Em, app_length in Lt. simpl in Lt.
    assert (Len : length (faces r t) <= length (m1 ++ m2)); [|rewrite app_length in Len; lia].
    apply (pigeon (fun u q => In q (basisOf r t) /\ ~ In q (basisOf r u))).
    - apply faces_nodup, P.
    - intros u Hu. destruct (face_drops_one t k j u At Hu) as (q & Hq & Hnq & _). exists q. split; [|split; auto].
      rewrite Em in Hq. apply in_app_or in Hq. apply in_or_app. destruct Hq as [Hq|[<-|Hq]]; auto. destruct (Hnq (All u Hu)).
    - intros u u' q Hu Hu' [Hq Hnu] [_ Hnu'].
      destruct (face_is_simplex r Hs t u k j At Hu) as (i & Au). destruct (face_is_simplex r Hs t u' k j At Hu') as (i' & Au').
      apply (v_uniq r Hv); [eapply assoc_contains; eauto | eapply assoc_contains; eauto|].
      intros z. rewrite (face_without t k j u q At Hu Hq Hnu z), (face_without t k j u' q At Hu' Hq Hnu' z). reflexivity.
  Qed.

  Theorem subsets_are_simplices : forall n t k j B,
    assoc t (r_simp r) = Some (k, j) -> NoDup B -> incl B (basisOf r t) -> length B + n = S k -> B <> [] ->
    exists u, containsSimplex r u = true /\ sameset (basisOf r u) B /\ fchain r n t u.
  Proof.
    induction n as [|n IH]; intros t k j B At Nd Hi Hl Hne.
    - exists t. split; [apply containsSimplex_assoc; eauto|]. split; [|reflexivity].
      intros x. split; [|apply Hi]. apply NoDup_length_incl; auto.
      rewrite (v_card r Hv t k j At). lia.
    - destruct k as [|k]; [destruct B; [congruence|simpl in Hl; lia]|].
      destruct (incl_or_witness B (basisOf r t)) as [H|(p & Hp & Hnp)].
      { pose proof (NoDup_incl_length (basis_nodup r t P) H). rewrite (v_card r Hv t (S k) j At) in *. lia. }
      destruct (every_point_dropped t k j p At Hp) as (u & Hu & Hnu).
      destruct (face_is_simplex r Hs t u k j At Hu) as (i & Au).
      destruct (IH u k i B Au Nd) as (w & Hw & Hsw & Hch); auto.
      + intros z Hz. apply (face_without t k j u p At Hu Hp Hnu). split; [apply Hi, Hz | intros ->; contradiction].
      + lia.
      + exists w. split; auto. split; auto. exists u. split; auto.
  Qed.

  Lemma fchain_basis_sub : forall n t u, containsSimplex r t = true -> fchain r n t u ->
    containsSimplex r u = true /\ incl (basisOf r u) (basisOf r t).
  Proof.
    induction n as [|n IH]; intros t u Ht H; simpl in H.
    - subst. split; auto. intros x; auto.
    - destruct H as (w & Hw & H). apply containsSimplex_assoc in Ht. destruct Ht as (k & j & At).
      destruct k as [|k]; [unfold faces in Hw; rewrite At in Hw; destruct Hw|].
      destruct (face_is_simplex r Hs t w k j At Hw) as (i & Aw).
      destruct (IH w u) as [Cu Hi]; auto; [apply containsSimplex_assoc; eauto|]. split; auto.
      intros x Hx. eapply face_basis_sub; eauto.
  Qed.

  Theorem closure_is_subsets t u : containsSimplex r t = true ->
    ((exists n, fchain r n t u) <-> containsSimplex r u = true /\ incl (basisOf r u) (basisOf r t)).
  Proof.
    intros Ht. split.
    - intros (n & H). eapply fchain_basis_sub; eauto.
    - intros [Hu Hi]. pose proof Ht as Ht'. apply containsSimplex_assoc in Ht'. destruct Ht' as (k & j & At).
      pose proof Hu as Hu'. apply containsSimplex_assoc in Hu'. destruct Hu' as (ku & i & Au).
      pose proof (NoDup_incl_length (basis_nodup r u P) Hi) as Hle.
      rewrite (v_card r Hv t k j At), (v_card r Hv u ku i Au) in Hle.
      destruct (subsets_are_simplices (k - ku) t k j (basisOf r u) At) as (w & Hw & Hsw & Hch).
      + apply basis_nodup; exact P.
      + exact Hi.
      + rewrite (v_card r Hv u ku i Au). lia.
      + intros E. pose proof (v_card r Hv u ku i Au) as L. rewrite E in L. discriminate.
      + assert (w = u) by (apply (v_uniq r Hv); auto). subst w. eauto.
  Qed.
  Theorem star_is_supersets s t : containsSimplex r s = true ->
    ((exists n, cchain r n s t) <-> containsSimplex r t = true /\ incl (basisOf r s) (basisOf r t)).
  Proof.
    intros Hs'. split.
    - intros (n & H). pose proof Hs' as Hs''. apply containsSimplex_assoc in Hs''. destruct Hs'' as (k & i & As).
      destruct (cchain_order r Hs n s t k i As H) as (it & At).
      assert (Ht : containsSimplex r t = true) by (apply containsSimplex_assoc; eauto).
      apply (chain_duality r Hs) in H.
      split; auto. destruct (fchain_basis_sub n t s Ht H); auto.
    - intros [Ht Hi]. destruct (proj2 (closure_is_subsets t s Ht) (conj Hs' Hi)) as (n & H).
      exists n. now apply (chain_duality r Hs).
  Qed.
End V.

Theorem closed_under_subsets r : vinv r -> forall t B, containsSimplex r t = true ->
  NoDup B -> B <> [] -> incl B (basisOf r t) -> exists u, containsSimplex r u = true /\ sameset (basisOf r u) B.
Proof.
  intros Hv t B Ht Nd Hne Hi. pose proof Ht as Ht'. apply containsSimplex_assoc in Ht'. destruct Ht' as (k & j & At).
  pose proof (NoDup_incl_length Nd Hi) as Hle. rewrite (v_card r Hv t k j At) in Hle.
  destruct (subsets_are_simplices r Hv (S k - length B) t k j B At Nd Hi) as (u & Hu & Hs & _); [lia|exact Hne|eauto].
Qed.

Theorem closureOf_is_subsets r s rev L : vinv r -> containsSimplex r s = true -> closureOf r s rev false = Ok L ->
  forall t, In t L <-> containsSimplex r t = true /\ incl (basisOf r t) (basisOf r s).
Proof.
  intros Hv Hs H t. pose proof Hs as Hs'. apply containsSimplex_assoc in Hs'. destruct Hs' as (k & j & As).
  rewrite (closureOf_spec r (vinv_sinv r Hv) s k j rev L As H t). now apply closure_is_subsets.
Qed.
Theorem partOf_is_supersets r s rev L : vinv r -> containsSimplex r s = true -> partOf r s rev false = Ok L ->
  forall t, In t L <-> containsSimplex r t = true /\ incl (basisOf r s) (basisOf r t).
Proof.
  intros Hv Hs H t. pose proof Hs as Hs'. apply containsSimplex_assoc in Hs'. destruct Hs' as (k & j & As).
  rewrite (partOf_spec r (vinv_sinv r Hv) s k j rev L As H t). now apply star_is_supersets.
Qed.

(* deleteSimplex, in vertex sets: exactly the simplices on supersets of s's points go, the others keep
   their points, and the reading survives *)
Theorem deleteSimplex_vertex_sets r s r' x : vinv r -> containsSimplex r s = true -> deleteSimplex r s = (r', x) ->
  x = Ok tt /\ vinv r' /\
  (forall t, containsSimplex r' t = true <-> containsSimplex r t = true /\ ~ incl (basisOf r s) (basisOf r t)) /\
  (forall t, containsSimplex r' t = true -> sameset (basisOf r' t) (basisOf r t)).
Proof.
  intros Hv Hs H. destruct (deleteSimplex_effect r s r' x (vinv_sinv r Hv) Hs H) as (Hx & _ & Hm & _).
  destruct (deleteSimplex_bases r s r' x Hv H) as [Hv' Hb].
  split; [exact Hx|]. split; [exact Hv'|]. split; [|exact Hb].
  intros t. rewrite Hm, (star_is_supersets r Hv s t Hs). tauto.
Qed.

(* add by basis, in vertex sets: the sets of points that carry a simplex afterwards are exactly those
   that did before and the non-empty subsets of bs *)
Theorem add_by_basis_vertex_sets r bs id attr r' n : vinv r -> NoDup bs -> 2 <= length bs ->
  c_addSimplexWithBasis r bs id attr = (r', Ok n) ->
  forall B, NoDup B -> B <> [] ->
  ((exists t, containsSimplex r' t = true /\ sameset (basisOf r' t) B) <->
   (exists t, containsSimplex r t = true /\ sameset (basisOf r t) B) \/ incl B bs).
Proof.
  intros Hv Hnd Hl H B NdB Hne.
  destruct (addSimplexWithBasis_spec r bs id attr r' n Hv Hnd Hl H) as (Hv' & Hc & Hs & [O N]).
  split.
  - intros (t & Ht & Hst). destruct (containsSimplex r t) eqn:C.
    + left. exists t. split; auto. destruct (O t C) as (_ & _ & _ & E). now rewrite <- E.
    + right. destruct (N t Ht) as [C'|Hi]; [congruence|]. intros z Hz. apply Hi. now apply Hst.
  - intros [(t & Ht & Hst)|Hi].
    + exists t. destruct (O t Ht) as (C' & _ & _ & E). split; auto. now rewrite E.
    + apply (closed_under_subsets r' Hv' n B Hc NdB Hne). intros z Hz. apply Hs. now apply Hi.
Qed.
