(* Reach.v -- the representation invariant (RepInv.v) through the algorithms of base.py: the
   instance of ReachGen.v at pinv.  Plain Coq. *)
From Coq Require Import String ZArith Bool Arith List Lia.
From SV Require Import Names NamesFacts ListFacts Rep Fresh Complex Atomic RepInv ReachGen.
Import ListNotations.
Open Scope nat_scope.

(* the recursion of addSimplexWithBasis, run on a bare representation; AwbSpec.v says what it does *)
Definition c_awb := awb rep (fun r => r) (fun _ r' => r') containsSimplex orderOf addSimplex.

Lemma setAttributes_pinv r s h : pinv r -> pinv (setAttributes r s h).
Proof. intros [K P St L]. constructor; auto. Qed.

Theorem deleteSimplex_pinv r s r' x : pinv r -> deleteSimplex r s = (r', x) -> pinv r'.
Proof. apply deleteSimplex_by_forceDelete, forceDeleteSimplex_pinv. Qed.

Local Hint Resolve pinv_same_obs pinv_empty addSimplex_pinv relabelSimplex_pinv deleteSimplex_pinv : pinv.

Theorem deleteSimplexWithBasis_pinv r bs r' x : pinv r -> deleteSimplexWithBasis r bs = (r', x) -> pinv r'.
Proof. inst deleteSimplexWithBasis_I at pinv with pinv. Qed.
Theorem deleteSimplices_pinv r ss r' x : pinv r -> deleteSimplices r ss = (r', x) -> pinv r'.
Proof. inst deleteSimplices_I at pinv with pinv. Qed.
Theorem restrictBasisTo_pinv r bs r' x : pinv r -> restrictBasisTo r bs = (r', x) -> pinv r'.
Proof. inst restrictBasisTo_I at pinv with pinv. Qed.
Theorem ensureBasis_pinv r bs attr r' x : pinv r -> c_ensureBasis r bs attr = (r', x) -> pinv r'.
Proof. inst ensureBasis_I at pinv with pinv. Qed.
Theorem addSimplexWithBasis_pinv r bs id attr r' x : pinv r -> c_addSimplexWithBasis r bs id attr = (r', x) -> pinv r'.
Proof. inst addSimplexWithBasis_I at pinv with pinv. Qed.
Theorem barycentricSubdivide_pinv r s pts r' x : pinv r -> barycentricSubdivide r s pts = (r', x) -> pinv r'.
Proof. inst barycentricSubdivide_I at pinv with pinv. Qed.
Theorem relabel_pinv r rn r' st x : pinv r -> relabel r rn = (r', st, x) -> pinv r'.
Proof. inst relabel_I at pinv with pinv. Qed.
Theorem addSimplicesFrom_pinv hp r src rn hp' r' st x : pinv r ->
  addSimplicesFrom hp r src rn = (hp', r', st, x) -> pinv r'.
Proof. inst addSimplicesFrom_I at pinv with pinv. Qed.
Theorem copy_new_pinv hp src uid hp' r' x : copy_new hp src uid = (hp', r', x) -> pinv r'.
Proof. inst copy_new_I at pinv with pinv. Qed.
Theorem copy_into_pinv hp src target hp' r' x : pinv target -> copy_into hp src target = (hp', r', x) -> pinv r'.
Proof. inst copy_into_I at pinv with pinv. Qed.
