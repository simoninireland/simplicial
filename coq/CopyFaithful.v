(* CopyFaithful.v -- copy() / addSimplicesFrom without a renaming is faithful (C09, C02): the result
   contains every simplex of the source view under its name, with the order and exactly the faces
   the view gives it; what the target held before keeps order, position, faces and basis.  A copy
   of a complex with the right face counts compares equal to it (C10).
   Plain Coq, on top of AddEffect.v. *)
From Coq Require Import String ZArith Bool Arith List Lia.
From SV Require Import Names NamesFacts ListFacts Rep Fresh Complex Atomic RepInv Shapes Incidence AddEffect Cmp.
Import ListNotations.
Open Scope nat_scope.

Lemma rl_map_none st l : rl_map RNone st l = (st, l).
Proof. induction l as [|x t IH]; simpl; [reflexivity|]. now rewrite IH. Qed.

Lemma sinv_alloc r : sinv r -> sinv (fst (alloc r)).
Proof. intros H. eapply sinv_same_obs; [apply same_obs_alloc | exact H]. Qed.

Lemma addFrom_loop_RNone_cons hp r st s fs h rest ns :
  addFrom_loop hp r RNone st ((s, (fs, h)) :: rest) ns =
  let '(r1, h') := alloc r in
  match addSimplex r1 fs (Some s) (Some h') with
  | (r2, Raise e) => (heap_set hp h' (heap_get hp h), r2, st, Raise e)
  | (r2, Ok id) => addFrom_loop (heap_set hp h' (heap_get hp h)) r2 RNone st rest (ns ++ [id])
  end.
Proof. cbn [addFrom_loop rl_apply]. rewrite name_eqb_refl, rl_map_none. reflexivity. Qed.

Lemma addSimplex_given r fs s h r' id : addSimplex r fs (Some s) (Some h) = (r', Ok id) ->
  id = s /\ containsSimplex r s = false /\
  r' = add_final (add_struct r (length fs - 1)) fs s h (length fs - 1).
Proof.
  intros E. pose proof (addSimplex_ok _ _ _ _ _ _ E) as F. cbv zeta in F.
  destruct F as (r2 & h0 & _ & Hr & [[= <-]|[=]] & [[= <-]|[[=] _]] & Cs & _ & _ & _ & _ & _ & ->).
  rewrite (Hr ltac:(discriminate) ltac:(discriminate)) in *. auto.
Qed.

Lemma alloc_add_effect r r1 h fs s r2 id : sinv r -> alloc r = (r1, h) ->
  addSimplex r1 fs (Some s) (Some h) = (r2, Ok id) ->
  sinv r2 /\ orderOf r2 s = Ok (length fs - 1) /\ (forall t, In t (faces r2 s) <-> In t fs) /\
  (forall t, containsSimplex r t = true ->
     orderOf r2 t = orderOf r t /\ indexOf r2 t = indexOf r t /\ faces r2 t = faces r t /\ basisOf r2 t = basisOf r t) /\
  (forall t, containsSimplex r2 t = containsSimplex r t || name_eqb t s).
Proof.
  intros Hinv Ea E. destruct (addSimplex_given _ _ _ _ _ _ E) as (-> & _).
  assert (Hs : same_obs r r1) by (pose proof (same_obs_alloc r) as X; now rewrite Ea in X).
  destruct (same_obs_queries r r1 Hs) as (Qo & Qi & Qf & _ & Qb & Qc & _).
  assert (Hinv1 : sinv r1) by (eapply sinv_same_obs; eauto).
  destruct (addSimplex_effect _ _ _ _ _ _ Hinv1 E) as (_ & _ & Ho & Hf & Hold & Hall).
  split; [eapply addSimplex_sinv; eauto|]. split; [exact Ho|]. split; [exact Hf|]. split.
  - intros t Ct. rewrite <- Qc in Ct. rewrite <- Qo, <- Qi, <- Qf, <- Qb. now apply Hold.
  - intros t. now rewrite Hall, Qc.
Qed.

Theorem bulk_add_faithful : forall (src : srcview) hp r st ns hp' r' st' ns',
  sinv r -> addFrom_loop hp r RNone st src ns = (hp', r', st', Ok ns') ->
  sinv r' /\
  (forall s fs h, In (s, (fs, h)) src ->
     containsSimplex r' s = true /\ orderOf r' s = Ok (length fs - 1) /\ (forall t, In t (faces r' s) <-> In t fs)) /\
  (forall s, containsSimplex r s = true ->
     containsSimplex r' s = true /\ orderOf r' s = orderOf r s /\ indexOf r' s = indexOf r s /\
     faces r' s = faces r s /\ basisOf r' s = basisOf r s) /\
  (forall s, containsSimplex r' s = containsSimplex r s || memn s (map fst src)).
Proof.
  induction src as [|[s [fs h]] rest IH]; intros hp r st ns hp' r' st' ns' Hinv H.
  - injection H as _ <- _ _. split; [exact Hinv|]. split; [intros s fs h []|]. split.
    + intros s Hs. repeat split; auto.
    + intros s. simpl. now rewrite orb_false_r.
  - rewrite addFrom_loop_RNone_cons in H. destruct (alloc r) as [r1 h'] eqn:Ea.
    destruct (addSimplex r1 fs (Some s) (Some h')) as [r2 [id|e]] eqn:E; [|discriminate].
    destruct (alloc_add_effect _ _ _ _ _ _ _ Hinv Ea E) as (Hinv2 & Ho & Hf & Hold & Hall).
    destruct (IH _ _ _ _ _ _ _ _ Hinv2 H) as (Hinv' & Hsrc & Hkeep & Hcont).
    split; [exact Hinv'|]. split; [|split].
    + intros s0 fs0 h0 [[= <- <- <-]|Hin]; [|now apply (Hsrc s0 fs0 h0)].
      destruct (Hkeep s) as (C' & O' & _ & F' & _); [rewrite Hall, name_eqb_refl; apply orb_true_r|].
      split; [exact C'|]. split; [now rewrite O'|]. intros t. now rewrite F'.
    + intros s0 Hs0. destruct (Hold s0 Hs0) as (O2 & I2 & F2 & B2).
      destruct (Hkeep s0) as (C' & O' & I' & F' & B'); [rewrite Hall, Hs0; reflexivity|].
      split; [exact C'|]. now rewrite O', I', F', B'.
    + intros s0. rewrite Hcont, Hall. cbn [map fst]. unfold memn. simpl.
      rewrite (name_eqb_sym s0 s). now rewrite orb_assoc.
Qed.

Lemma copy_new_ok hp src uid hp' r' : copy_new hp src uid = (hp', r', Ok tt) ->
  exists st ns, addFrom_loop hp (empty_rep uid) RNone rl0 src [] = (hp', r', st, Ok ns).
Proof.
  unfold copy_new, addSimplicesFrom.
  destruct (addFrom_loop hp (empty_rep uid) RNone rl0 src []) as [[[hp1 r1] st1] [ns|e]]; [|discriminate].
  intros [= <- <-]. eauto.
Qed.

Theorem copy_faithful hp src uid hp' r' :
  copy_new hp (view_of src) uid = (hp', r', Ok tt) ->
  sinv r' /\
  (forall s, containsSimplex r' s = memn s (simplices src false)) /\
  (forall s, In s (simplices src false) ->
     orderOf r' s = Ok (length (faces src s) - 1) /\ forall t, In t (faces r' s) <-> In t (faces src s)).
Proof.
  intros H. destruct (copy_new_ok _ _ _ _ _ H) as (st & ns & E).
  destruct (bulk_add_faithful _ _ _ _ _ _ _ _ _ (sinv_empty uid) E) as (Hinv & Hsrc & _ & Hcont).
  split; [exact Hinv|]. split.
  - intros s. rewrite Hcont. unfold view_of. rewrite map_map. simpl. rewrite map_id. reflexivity.
  - intros s Hs. unfold view_of in Hsrc. destruct (Hsrc _ _ _ (in_map _ _ s Hs)) as (_ & Ho & Hf). split; assumption.
Qed.

(* the source has, for every simplex of order k, a list of faces of length k+1 (k >= 1) or none
   (k = 0): part of C01's well-formedness, assumed here *)
Definition face_counts (a : rep) : Prop :=
  forall k i, In i (simplicesOfOrder a k) -> length (faces a i) - 1 = k.

Theorem copy_equals_source hp a uid hp' c : pinv a -> face_counts a ->
  copy_new hp (view_of a) uid = (hp', c, Ok tt) -> c_eq a c = true.
Proof.
  intros Pa Hfc H. destruct (copy_faithful hp a uid hp' c H) as (Hinv & Hcont & Hsrc).
  pose proof (s_p c Hinv) as Pc.
  assert (Hle1 : c_le a c = true).
  { apply le_iff. intros k i Hk Hi.
    assert (Hin : In i (simplices a false)) by (apply In_simplices_iff; [exact Pa|]; apply contains_iff_listed; eauto).
    destruct (Hsrc i Hin) as [Ho Hf]. split; [rewrite Hcont; now apply memn_In|].
    split; [rewrite Ho; f_equal; now apply Hfc|]. intros t Ht. now apply Hf. }
  unfold c_eq. rewrite Hle1. simpl.
  apply Nat.eqb_eq. rewrite !numberOfSimplices_length by assumption.
  assert (I1 : incl (simplices a false) (simplices c false)).
  { intros s Hs. apply In_simplices_iff; [exact Pc|]. rewrite Hcont. now apply memn_In. }
  assert (I2 : incl (simplices c false) (simplices a false)).
  { intros s Hs. apply In_simplices_iff in Hs; [|exact Pc]. rewrite Hcont in Hs. now apply memn_In. }
  apply Nat.le_antisymm; apply NoDup_incl_length; auto using simplices_nodup.
Qed.
