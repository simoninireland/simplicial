(* WorldOwn.v -- the ownership invariant of worlds: every complex (or the complex underneath a
   filtration) bound to a variable owns all its attribute dictionaries, under an owner below the
   world's counter.  Every derived-complex constructor keeps it (accepted or rejected), so the
   hypotheses `owned` of the frame theorems hold of everything constructors produce. *)
From Coq Require Import String ZArith Bool Arith List Lia.
From SV Require Import Names NamesFacts ListFacts Rep Fresh Complex Atomic RepInv Homology Filtration Gen World WorldProofs CtorFrame.
Import ListNotations.
Open Scope nat_scope.

Definition wown (w : world) : Prop :=
  forall y ob r, vget (w_vars w) y = Some ob -> rep_of ob = Some r -> owned r /\ r_uid r < w_uid w.

Lemma wown_binds w x w' : binds w x w' -> wown w -> wown w'.
Proof.
  intros [[Hu _] [Hv|(ob & Hv & Hob)]] W y ob' r Hy Hr; rewrite Hv in Hy.
  - destruct (W _ _ _ Hy Hr) as [O U]. split; [exact O|lia].
  - destruct (String.eqb_spec y x) as [->|Hne].
    + rewrite vget_vset_same in Hy. injection Hy as <-. destruct (Hob _ Hr) as [O U]. split; [exact O|lia].
    + rewrite vget_vset_other in Hy by exact Hne. destruct (W _ _ _ Hy Hr) as [O U]. split; [exact O|lia].
Qed.

Theorem ctor_keeps_wown w c x w' o : ctor_result c = Some x -> exec w c = (w', o) -> wown w -> wown w'.
Proof. intros Hc H. exact (wown_binds _ _ _ (exec_ctor_spec _ _ _ _ _ Hc H)). Qed.

(* the empty world meets the invariant, and so does every world reached from it by constructors
   alone -- non-vacuity of `wown` *)
Lemma wown_no_vars hp n d : wown (mkWorld [] hp n d).
Proof. intros y ob r Hy. discriminate. Qed.

Lemma empty_fresh u hp : owned (empty_rep u) /\ r_uid (empty_rep u) = u /\ agree_off u hp hp.
Proof. split; [apply owned_empty|]. split; [reflexivity|apply agree_off_refl]. Qed.

Theorem new_keeps_wown w v w' o : exec w (CNew v) = (w', o) -> wown w -> wown w'.
Proof. intros H. apply (wown_binds _ v). apply (bind_fresh (res := Ok tt) (empty_fresh _ _) H); auto. Qed.

Theorem newf_keeps_wown w v i w' o : exec w (CNewF v i) = (w', o) -> wown w -> wown w'.
Proof. intros H. apply (wown_binds _ v). apply (bind_fresh (res := Ok tt) (empty_fresh _ _) H); auto. Qed.

Theorem query_keeps_wown w v q w' o : exec w (CQuery v q) = (w', o) -> wown w -> wown w'.
Proof. intros H W. now rewrite (query_leaves_world _ _ _ _ _ H). Qed.
