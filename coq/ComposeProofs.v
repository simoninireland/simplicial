(* ComposeProofs.v -- when a.compose(c) succeeds the result is the union (C16): it contains exactly
   the simplices of a and of c; those of a keep the faces they have in a, the others have the faces
   they have in c.  Plain Coq. *)
From Coq Require Import Bool List Lia.
From SV Require Import Names NamesFacts ListFacts Rep Complex Atomic RepInv ReachGen Shapes Closed BasisInv CopyFaithful VInv AwbSpec VSets VIso Lookup Homology.
Import ListNotations.
Open Scope nat_scope.

Lemma sinv_setAttributes r s h : sinv r -> sinv (setAttributes r s h).
Proof.
  intros [P Lb Ls Sh]. constructor; auto.
  destruct P as [K Pm St L]. constructor; auto.
Qed.

Lemma bcinv_setAttributes r s h : bcinv r -> bcinv (setAttributes r s h).
Proof.
  intros [[S F] B]. split; [split|].
  - now apply sinv_setAttributes.
  - exact F.
  - exact B.
Qed.

Lemma same_faces_order r d s : cinv r -> cinv d -> containsSimplex r s = true -> containsSimplex d s = true ->
  (forall t, In t (faces d s) <-> In t (faces r s)) -> orderOf d s = orderOf r s.
Proof.
  intros Cr Cd Crs Cds Hf. rewrite (order_by_faces d s Cd Cds), (order_by_faces r s Cr Crs). f_equal. f_equal.
  apply NoDup_same_length; [apply faces_nodup, s_p, c_s, Cd | apply faces_nodup, s_p, c_s, Cr | exact Hf].
Qed.

Lemma same_faces_same_points r r' s t o j o' j' : bcinv r -> bcinv r' ->
  assoc s (r_simp r) = Some (S o, j) -> assoc t (r_simp r') = Some (S o', j') ->
  sameset (faces r' t) (faces r s) -> (forall u, In u (faces r s) -> sameset (basisOf r' u) (basisOf r u)) ->
  sameset (basisOf r' t) (basisOf r s).
Proof.
  intros B B' As At Sf Hu p. destruct (b_b r' B' t (S o') j' At) as [_ Bt]. destruct (b_b r B s (S o) j As) as [_ Bs].
  rewrite (Bt ltac:(lia) p), (Bs ltac:(lia) p). split; intros (u & Hin & Hp).
  - apply Sf in Hin. exists u. split; [exact Hin | now apply Hu].
  - exists u. split; [now apply Sf | now apply Hu].
Qed.

Definition compose_step (a c : rep) (acc : heap * rep * res unit) (s : name) : heap * rep * res unit :=
  match acc with
  | (hp', d', Raise e) => acc
  | (hp', d', Ok _) =>
      let sb := basisOf c s in
      match c_simplexWithBasis a sb false with
      | Raise e => (hp', d', Raise e)
      | Ok q =>
          let hc := match assoc s (r_attr c) with Some h => h | None => (0, 0) end in
          if containsSimplex a s then
            match q with
            | None => (hp', d', Raise ValueError)
            | Some q' =>
                if name_eqb s q' then
                  let ha := match assoc s (r_attr a) with Some h => h | None => (0, 0) end in
                  let '(d1, h') := alloc d' in
                  let merged := fold_left (fun dd kv => dict_set dd (fst kv) (snd kv))
                                          (heap_get hp' hc) (heap_get hp' ha) in
                  (heap_set hp' h' merged, setAttributes d1 s h', Ok tt)
                else (hp', d', Raise ValueError)
            end
          else
            match q with
            | Some _ => (hp', d', Raise ValueError)
            | None =>
                let '(d1, h') := alloc d' in
                let hp1 := heap_set hp' h' (heap_get hp' hc) in
                match addSimplex d1 (faces c s) (Some s) (Some h') with
                | (d2, Raise e) => (hp1, d2, Raise e)
                | (d2, Ok _) => (hp1, d2, Ok tt)
                end
            end
      end
  end.

(* what copy() reads of a simplex of r: its faces and its dictionary *)
Definition vw (r : rep) (s : name) : name * (list name * handle) :=
  (s, (faces r s, match assoc s (r_attr r) with Some h => h | None => (0, 0) end)).

Lemma addFrom_loop_one hp d s fs h st ns :
  addFrom_loop hp d RNone st [(s, (fs, h))] ns =
  let '(d2, x) := addSimplex (fst (alloc d)) fs (Some s) (Some (snd (alloc d))) in
  (heap_set hp (snd (alloc d)) (heap_get hp h), d2, st, bind x (fun id => Ok (ns ++ [id]))).
Proof.
  rewrite addFrom_loop_RNone_cons. destruct (alloc d) as [d1 h']. cbn [fst snd]. now destruct (addSimplex d1 fs (Some s) (Some h')) as [d2 [id|e]].
Qed.

(* A step goes through in two ways.  s is a simplex of a as well: looking up the points s has in c finds
   s in a, and s gets a new dictionary holding a's entries updated with c's.  Or s is not in a: the lookup
   finds nothing, and s is added as copy() would add it. *)
Lemma compose_step_inv a c hp d s hp' d' :
  compose_step a c (hp, d, Ok tt) s = (hp', d', Ok tt) <->
  (containsSimplex a s = true /\ c_simplexWithBasis a (basisOf c s) false = Ok (Some s) /\
   hp' = heap_set hp (snd (alloc d))
           (fold_left (fun dd kv => dict_set dd (fst kv) (snd kv))
              (heap_get hp (snd (snd (vw c s)))) (heap_get hp (snd (snd (vw a s))))) /\
   d' = setAttributes (fst (alloc d)) s (snd (alloc d))) \/
  (containsSimplex a s = false /\ c_simplexWithBasis a (basisOf c s) false = Ok None /\
   addFrom_loop hp d RNone rl0 [vw c s] [] = (hp', d', rl0, Ok [s])).
Proof.
  unfold compose_step, vw. rewrite addFrom_loop_one. split.
  - destruct (c_simplexWithBasis a (basisOf c s) false) as [[q|]|e], (containsSimplex a s); try discriminate.
    + destruct (name_eqb_spec s q) as [<-|]; [|discriminate]. destruct (alloc d) as [d1 h']. intros [= <- <-]. left. auto.
    + destruct (alloc d) as [d1 h']. cbn [fst snd].
      destruct (addSimplex d1 (faces c s) (Some s) (Some h')) as [d2 [id|e]] eqn:EA; [|discriminate].
      destruct (addSimplex_given _ _ _ _ _ _ EA) as (-> & _). intros [= <- <-]. right. auto.
  - intros [(-> & -> & -> & ->)|(-> & -> & E)].
    + rewrite name_eqb_refl. now destruct (alloc d).
    + destruct (alloc d) as [d1 h']. cbn [fst snd] in E.
      destruct (addSimplex d1 (faces c s) (Some s) (Some h')) as [d2 [id|e]]; [|discriminate]. now injection E as <- <- <-.
Qed.

Section Compose.
  Variables (a c : rep).

  (* for a loop that runs to its end without raising it is enough to look at the steps that succeed *)
  Lemma compose_fold_ind (P : list name -> heap -> rep -> Prop) :
    (forall dn hp1 d1 s hp2 d2, P dn hp1 d1 -> compose_step a c (hp1, d1, Ok tt) s = (hp2, d2, Ok tt) -> P (dn ++ [s]) hp2 d2) ->
    forall L done hp d hp' d', P done hp d ->
    fold_left (compose_step a c) L (hp, d, Ok tt) = (hp', d', Ok tt) -> P (done ++ L) hp' d'.
  Proof.
    intros Hstep L done hp d. apply (prefix_ind (fun dn => forall hp' d', P done hp d ->
      fold_left (compose_step a c) dn (hp, d, Ok tt) = (hp', d', Ok tt) -> P (done ++ dn) hp' d')).
    - intros hp' d' H0 [= <- <-]. now rewrite app_nil_r.
    - intros dn s _ _ IH hp' d' H0. rewrite fold_left_app, app_assoc. cbn [fold_left].
      destruct (fold_left (compose_step a c) dn (hp, d, Ok tt)) as [[hp1 d1] [[]|e]]; [|discriminate].
      apply Hstep, IH; auto.
  Qed.

  (* what is true of the complex under construction after the names in `done` have been handled *)
  Record cstate (done : list name) (d : rep) : Prop := {
    cs_inv : bcinv d;
    cs_mem : forall s, containsSimplex d s = containsSimplex a s || memn s done;
    cs_a : forall s, containsSimplex a s = true -> forall t, In t (faces d s) <-> In t (faces a s);
    cs_c : forall s, In s done -> containsSimplex a s = false -> forall t, In t (faces d s) <-> In t (faces c s) }.

  Lemma cstate_step done hp d s hp' d' : cstate done d ->
    compose_step a c (hp, d, Ok tt) s = (hp', d', Ok tt) -> cstate (done ++ [s]) d'.
  Proof.
    intros [Hinv Hmem Ha Hc] E.
    assert (Hsnoc : forall t, memn t (done ++ [s]) = memn t done || memn t [s]) by (intros t; apply existsb_app).
    apply compose_step_inv in E. destruct E as [(Cs & _ & _ & ->)|(Cs & _ & EA)].
    - (* the complex keeps its simplices and their faces *)
      constructor.
      + apply bcinv_setAttributes, (bcinv_same_obs d); [apply same_obs_alloc | exact Hinv].
      + intros t. change (containsSimplex d t = containsSimplex a t || memn t (done ++ [s])).
        rewrite Hmem, Hsnoc. simpl. destruct (name_eqb_spec t s) as [->|]; [now rewrite Cs | now rewrite !orb_false_r].
      + exact Ha.
      + intros t Hin Ht. apply in_app_or in Hin. destruct Hin as [Hin|[<-|[]]]; [exact (Hc t Hin Ht) | congruence].
    - destruct (bulk_add_faithful _ _ _ _ _ _ _ _ _ (bcinv_sinv d Hinv) EA) as (_ & Hnew & Hkeep & Hall).
      assert (Hold : forall t, containsSimplex d t = true -> faces d' t = faces d t) by (intros t Ht; apply (Hkeep t Ht)).
      constructor.
      + eapply (addFrom_loop_I bcinv); eauto using bcinv_same_obs, addSimplex_bcinv.
      + intros t. now rewrite Hall, Hmem, Hsnoc, orb_assoc.
      + intros t Ht. rewrite Hold by (rewrite Hmem, Ht; reflexivity). now apply Ha.
      + intros t Hin Ht. apply in_app_or in Hin. destruct Hin as [Hin|[<-|[]]]; [|apply (Hnew s _ _ (or_introl eq_refl))].
        rewrite Hold by (rewrite Hmem; apply orb_true_iff; right; now apply memn_In). now apply Hc.
  Qed.
End Compose.

Lemma compose_loop_fold hp a c d :
  compose_loop hp a c d = fold_left (compose_step a c) (concat (map (simplicesOfOrder c) (seq 0 (r_nord c)))) (hp, d, Ok tt).
Proof. reflexivity. Qed.

Lemma compose_ok_inv hp a c uid hp' d : pinv c -> compose hp a c None uid = (hp', d, Ok tt) ->
  exists hp1 d0, copy_new hp (view_of a) uid = (hp1, d0, Ok tt) /\
                 fold_left (compose_step a c) (simplices c false) (hp1, d0, Ok tt) = (hp', d, Ok tt).
Proof.
  intros Pc H. unfold compose in H. destruct (copy_new hp (view_of a) uid) as [[hp1 d0] [[]|e]]; [|discriminate].
  rewrite compose_loop_fold, <- simplices_concat in H by exact Pc. eauto.
Qed.

Lemma memn_simplices r s : pinv r -> memn s (simplices r false) = containsSimplex r s.
Proof. intros P. apply eq_true_iff_eq. rewrite memn_In. now apply In_simplices_iff. Qed.

Lemma cstate_copy hp a c uid hp1 d0 : pinv a -> copy_new hp (view_of a) uid = (hp1, d0, Ok tt) -> cstate a c [] d0.
Proof.
  intros Pa E. destruct (copy_faithful hp a uid hp1 d0 E) as (_ & Hmem & Hf). constructor.
  - exact (copy_new_bcinv _ _ _ _ _ _ E).
  - intros s. rewrite Hmem, memn_simplices by exact Pa. simpl. now rewrite orb_false_r.
  - intros s Hs. apply (In_simplices_iff a s Pa) in Hs. apply (Hf s Hs).
  - intros s [].
Qed.

Lemma compose_cstate hp a c uid hp' d : pinv a -> pinv c ->
  compose hp a c None uid = (hp', d, Ok tt) -> cstate a c (simplices c false) d.
Proof.
  intros Pa Pc H. destruct (compose_ok_inv hp a c uid hp' d Pc H) as (hp1 & d0 & E0 & E).
  exact (compose_fold_ind a c (fun dn _ => cstate a c dn) (cstate_step a c) _ [] _ _ _ _ (cstate_copy hp a c uid hp1 d0 Pa E0) E).
Qed.

(* a.compose(c) without a target: when it succeeds, the result is the union *)
Theorem compose_is_union hp a c uid hp' d : pinv a -> pinv c ->
  compose hp a c None uid = (hp', d, Ok tt) ->
  sinv d /\
  (forall s, containsSimplex d s = containsSimplex a s || containsSimplex c s) /\
  (forall s, containsSimplex a s = true -> forall t, In t (faces d s) <-> In t (faces a s)) /\
  (forall s, containsSimplex c s = true -> containsSimplex a s = false -> forall t, In t (faces d s) <-> In t (faces c s)).
Proof.
  intros Pa Pc H. destruct (compose_cstate hp a c uid hp' d Pa Pc H) as [Hinv Hmem Ha Hc].
  split; [exact (bcinv_sinv d Hinv)|]. split; [intros s; now rewrite Hmem, memn_simplices|]. split; [exact Ha|].
  intros s Hcs. apply Hc. now apply In_simplices_iff.
Qed.

(* simplexWithBasis(bs, fatal=False) on any duplicate-free non-empty list: it finds the simplex on bs or says None *)
Lemma lookup_total r bs : vinv r -> NoDup bs -> bs <> [] ->
  (exists s, c_simplexWithBasis r bs false = Ok (Some s) /\ containsSimplex r s = true /\ sameset (basisOf r s) bs) \/
  (c_simplexWithBasis r bs false = Ok None /\ forall t, containsSimplex r t = true -> ~ sameset (basisOf r t) bs).
Proof.
  intros Hv Hnd Hne. destruct (c_isBasis r bs false) as [[|]|e] eqn:Eb.
  - apply isBasis_true_iff in Eb. pose proof (lookup_by_basis_exact r bs Hv Eb Hnd Hne) as H.
    destruct (c_simplexWithBasis r bs false) as [[s|]|e]; [left; exists s; tauto | right; auto | destruct H].
  - right. assert (Np : ~ pts r bs) by (intros Hp; apply isBasis_true_iff in Hp; congruence).
    split.
    + unfold c_simplexWithBasis, simplexWithBasis. fold (c_isBasis r bs false). now rewrite Eb.
    + intros t Ct St. apply Np. intros b Hb. apply containsSimplex_assoc in Ct. destruct Ct as (k & j & A).
      apply (a_basis_point r Hv t k j b A). now apply St.
  - destruct (isBasis_no_raise r bs) as (b & Hb). congruence.
Qed.

(* a.compose(c) succeeds only on compatible operands: for every simplex s of c, looking up s's basis
   (as it is in c) in a finds s itself when a has the name s, and nothing when it has not *)
Lemma compose_fold_checks a c : forall (L : list name) hp d hp' d',
  fold_left (compose_step a c) L (hp, d, Ok tt) = (hp', d', Ok tt) ->
  forall s, In s L -> c_simplexWithBasis a (basisOf c s) false = Ok (if containsSimplex a s then Some s else None).
Proof.
  intros L hp d hp' d'.
  apply (compose_fold_ind a c (fun dn _ _ => forall s, In s dn -> _ = Ok (if containsSimplex a s then Some s else None)))
    with (done := []); [|intros s []].
  intros dn hp1 d1 s0 hp2 d2 IH E s Hs. apply in_app_or in Hs. destruct Hs as [Hs|[<-|[]]]; [now apply IH|].
  apply compose_step_inv in E. destruct E as [(-> & El & _)|(-> & El & _)]; exact El.
Qed.

Theorem compose_accepts_only_compatible hp a c uid hp' d : pinv c ->
  compose hp a c None uid = (hp', d, Ok tt) ->
  forall s, containsSimplex c s = true ->
  c_simplexWithBasis a (basisOf c s) false = Ok (if containsSimplex a s then Some s else None).
Proof.
  intros Pc H s Hs. destruct (compose_ok_inv hp a c uid hp' d Pc H) as (hp1 & d0 & _ & E).
  apply (compose_fold_checks a c _ hp1 d0 hp' d E). now apply In_simplices_iff.
Qed.
