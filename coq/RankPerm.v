(* RankPerm.v -- the GF(2) rank of a 0/1 matrix does not change when its rows and columns are re-indexed by
   bijections of the index ranges (mathcomp permutations built from injective functions on ordinals). *)
From mathcomp Require Import ssreflect ssrfun ssrbool eqtype ssrnat seq choice fintype finfun bigop finset fingroup perm ssralg zmodp matrix mxalgebra.
From Coq Require Import Lia.
From SV Require Import Rank.
Set Implicit Arguments.
Unset Strict Implicit.
Unset Printing Implicit Defensive.
Import GRing.Theory.
Local Open Scope ring_scope.

Theorem rank_reindex m n (f g : nat -> nat -> bool) (sg tau : nat -> nat) :
  (forall i, (i < m)%N -> (sg i < m)%N) ->
  (forall i i', (i < m)%N -> (i' < m)%N -> sg i = sg i' -> i = i') ->
  (forall j, (j < n)%N -> (tau j < n)%N) ->
  (forall j j', (j < n)%N -> (j' < n)%N -> tau j = tau j' -> j = j') ->
  (forall i j, (i < m)%N -> (j < n)%N -> f i j = g (sg i) (tau j)) ->
  \rank (mxf m n f) = \rank (mxf m n g).
Proof.
move=> Hs Is Ht It E.
rewrite (@mxf_ext m n f (fun i j => g (sg i) (tau j))) //.
rewrite (@rank_reindex_cols m n (fun i j => g (sg i) j) tau Ht It).
exact: rank_reindex_rows.
Qed.
