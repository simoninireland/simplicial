(* Incidence.v -- faces, cofaces and the boundary matrices tell one story (C03), for every
   representation satisfying the shape invariant, i.e. at every point of every history:
   t is a face of s  <->  the boundary matrix of s's order has a 1 in (row of t, column of s)
                     <->  s is a coface of t.   Plain Coq. *)
From Coq Require Import String ZArith Bool Arith List Lia.
From SV Require Import Names NamesFacts ListFacts Rep Complex Atomic RepInv Shapes.
Import ListNotations.
Open Scope nat_scope.

Lemma In_names_of_col names c x :
  In x (names_of_col names c) <-> exists i, nth_error names i = Some x /\ nth_error c i = Some true.
Proof.
  unfold names_of_col. revert c. induction names as [|n t IH]; intros c.
  - simpl. split; [tauto|]. intros (i & H & _). destruct i; discriminate.
  - destruct c as [|b c].
    + simpl. split; [tauto|]. intros (i & _ & H). destruct i; discriminate.
    + simpl. destruct b; simpl.
      * split.
        -- intros [<-|H]; [exists 0; auto|]. apply IH in H. destruct H as (i & H1 & H2). exists (S i). auto.
        -- intros ([|i] & H1 & H2); simpl in *; [left; congruence|]. right. apply IH. eauto.
      * split.
        -- intros H. apply IH in H. destruct H as (i & H1 & H2). exists (S i). auto.
        -- intros ([|i] & H1 & H2); simpl in *; [discriminate|]. apply IH. eauto.
Qed.

(* the entry of a matrix, by column then row *)
Definition mentry (m : mat) (i j : nat) : bool := nth i (nth j (mcols m) []) false.

Lemma nth_error_getcol m i j nr nc : dims m nr nc -> i < nr -> j < nc ->
  nth_error (getcol j m) i = Some (mentry m i j).
Proof.
  intros (Hok & Hr & Hc) Hi Hj. unfold getcol, mentry. apply nth_error_nth'.
  unfold mat_ok in Hok. rewrite Forall_forall in Hok. rewrite (Hok (nth j (mcols m) [])); [lia|].
  apply nth_In. unfold ncols in Hc. lia.
Qed.

Lemma nth_error_getrow m i j nr nc : dims m nr nc -> j < nc ->
  nth_error (getrow i m) j = Some (mentry m i j).
Proof.
  intros (Hok & Hr & Hc) Hj. unfold getrow, mentry, ncols in *.
  rewrite nth_error_map. rewrite (nth_error_nth' (mcols m) []) by lia. reflexivity.
Qed.

Lemma getcol_short m i j nr nc : dims m nr nc -> nr <= i -> nth_error (getcol j m) i <> Some true.
Proof.
  intros (Hok & Hr & Hc) Hi H. unfold getcol in H.
  destruct (Nat.ltb_spec j (length (mcols m))) as [Hj|Hj].
  - unfold mat_ok in Hok. rewrite Forall_forall in Hok.
    assert (Hl : length (nth j (mcols m) []) = nrows m) by (apply Hok, nth_In; exact Hj).
    assert (i < length (nth j (mcols m) [])) by (apply nth_error_Some; congruence). lia.
  - rewrite nth_overflow in H by lia. destruct i; discriminate.
Qed.

Section Incidence.
  Variable r : rep.
  Hypothesis Hinv : sinv r.
  Let P := s_p r Hinv.

  Theorem face_iff_entry s t k' i j :
    assoc s (r_simp r) = Some (S k', j) -> assoc t (r_simp r) = Some (k', i) ->
    (In t (faces r s) <-> mentry (bndk r (S k')) i j = true).
  Proof.
    intros As At. destruct (pinv_pos_lt r s _ j P As) as (Hk & Hj & _). destruct (pinv_pos_lt r t _ i P At) as (_ & Hi & _).
    pose proof (sinv_bnd_dims r k' Hinv Hk) as Hd.
    unfold faces. rewrite As, In_names_of_col. split.
    - intros (i' & H1 & H2). apply (pinv_at r t k' i' P) in H1. rewrite At in H1. injection H1 as <-.
      rewrite (nth_error_getcol _ _ _ _ _ Hd Hi Hj) in H2. congruence.
    - intros H. exists i. split; [now apply (pinv_at r t k' i P)|]. rewrite (nth_error_getcol _ _ _ _ _ Hd Hi Hj). now rewrite H.
  Qed.

  Theorem coface_iff_entry s t k' i j :
    assoc s (r_simp r) = Some (S k', j) -> assoc t (r_simp r) = Some (k', i) ->
    (In s (cofaces r t) <-> mentry (bndk r (S k')) i j = true).
  Proof.
    intros As At. destruct (pinv_pos_lt r s _ j P As) as (Hk & Hj & _).
    pose proof (sinv_bnd_dims r k' Hinv Hk) as Hd.
    unfold cofaces. rewrite At, eqb_false, In_names_of_col by lia. split.
    - intros (j' & H1 & H2). apply (pinv_at r s _ j' P) in H1. rewrite As in H1. injection H1 as <-.
      rewrite (nth_error_getrow _ _ _ _ _ Hd Hj) in H2. congruence.
    - intros H. exists j. split; [now apply (pinv_at r s _ j P)|]. rewrite (nth_error_getrow _ _ _ _ _ Hd Hj). now rewrite H.
  Qed.

  Lemma face_is_simplex s t k' j : assoc s (r_simp r) = Some (S k', j) -> In t (faces r s) ->
    exists i, assoc t (r_simp r) = Some (k', i).
  Proof.
    intros As H. unfold faces in H. rewrite As in H. apply In_names_of_col in H. destruct H as (i & H1 & _).
    exists i. now apply (pinv_at r t k' i P).
  Qed.
  Lemma coface_is_simplex s t k i : assoc t (r_simp r) = Some (k, i) -> In s (cofaces r t) ->
    exists j, assoc s (r_simp r) = Some (S k, j).
  Proof.
    intros At H. unfold cofaces in H. rewrite At in H. destruct (S k =? r_nord r); [destruct H|].
    apply In_names_of_col in H. destruct H as (j & H1 & _). exists j. now apply (pinv_at r s (S k) j P).
  Qed.

  Theorem cofaces_inverse_of_faces s t : In t (faces r s) <-> In s (cofaces r t).
  Proof.
    split; intros H.
    - destruct (assoc s (r_simp r)) as [[[|k'] j]|] eqn:As; try (unfold faces in H; rewrite As in H; destruct H).
      destruct (face_is_simplex s t k' j As H) as (i & At).
      apply (coface_iff_entry s t k' i j As At). now apply (face_iff_entry s t k' i j As At).
    - destruct (assoc t (r_simp r)) as [[k i]|] eqn:At; [|unfold cofaces in H; rewrite At in H; destruct H].
      destruct (coface_is_simplex s t k i At H) as (j & As).
      apply (face_iff_entry s t k i j As At). now apply (coface_iff_entry s t k i j As At).
  Qed.
End Incidence.

(* in listing order: row i / column j of the order-(k+1) boundary operator are the i-th k-simplex
   and the j-th (k+1)-simplex, and the entry is 1 exactly when the former is a face of the latter *)
Theorem boundary_entries r k' i j s t : sinv r ->
  nth_error (simplicesOfOrder r (S k')) j = Some s -> nth_error (simplicesOfOrder r k') i = Some t ->
  (mentry (boundaryOperator r (S k')) i j = true <-> In t (faces r s)).
Proof.
  intros Hinv Hs Ht. apply (nth_simplicesOfOrder r _ _ _ (s_p r Hinv)) in Hs, Ht.
  destruct (pinv_pos_lt r s _ j (s_p r Hinv) Hs) as (Hk & _).
  unfold boundaryOperator. cbn [Nat.eqb]. rewrite leb_false by lia.
  symmetry. now apply face_iff_entry.
Qed.
