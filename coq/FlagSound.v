(* FlagSound.v -- `_completePotentialSimplices` keeps the vertex-set reading (C11, C12): a
   combination of k+1 simplices of order k-1 that passes `_isClosed` is, by the minimal-cycle lemma,
   the set of facets of one set of k+1 points, and when `simplexWithFaces` finds nothing no simplex
   sits on those points yet -- so the `addSimplex` that follows is an add of `good_faces`.  Hence
   flagComplex / growFlagComplex of a complex that meets the reading meets it again, and every
   simplex they create sits on a clique of the 1-skeleton.  Plain Coq. *)
From Coq Require Import String ZArith Bool Arith List Lia.
From SV Require Import Names NamesFacts ListFacts Rep Fresh Complex Atomic RepInv Shapes Incidence AddEffect
                       Closed ClosedReach AddBasis BasisInv Duality DeleteEffect VInv AwbSpec VSets DD CopyFaithful
                       Homology ListMat Listing FlagExt VIso MinCycle.
Import ListNotations.
Open Scope nat_scope.

Lemma fold_xor_spec (bnd : mat) nr nc : dims bnd nr nc -> forall fs acc, length acc = nr ->
  (forall j, In j fs -> j < nc) ->
  length (fold_left (fun a j => xor_row a (getcol j bnd)) fs acc) = nr /\
  forall i, i < nr -> nth i (fold_left (fun a j => xor_row a (getcol j bnd)) fs acc) false =
                      xorb (nth i acc false) (parity (map (fun j => mentry bnd i j) fs)).
Proof.
  intros D. induction fs as [|j t IH]; intros acc Ha Hj; simpl.
  - split; [exact Ha | intros; now rewrite xorb_false_r].
  - assert (Lc : length (getcol j bnd) = nr) by (eapply length_getcol; eauto; apply Hj; now left).
    destruct (IH (xor_row acc (getcol j bnd))) as [L N]; [now rewrite length_xor_row | intros; apply Hj; now right|].
    split; [exact L|]. intros i Hi. rewrite (N i Hi), nth_xor_row by congruence. now rewrite xorb_assoc.
Qed.

Lemma forallb_negb_nth (l : list bool) : forallb negb l = true <-> forall i, i < length l -> nth i l false = false.
Proof.
  rewrite forallb_forall. split.
  - intros H i Hi. apply negb_true_iff, H. now apply nth_In.
  - intros H x Hx. apply (In_nth _ _ false) in Hx. destruct Hx as (i & Hi & <-). now rewrite (H i Hi).
Qed.

Lemma isClosed_parity (bnd : mat) nr nc fs : dims bnd nr nc -> (forall j, In j fs -> j < nc) ->
  (isClosed bnd fs = true <-> forall i, i < nr -> parity (map (fun j => mentry bnd i j) fs) = false).
Proof.
  intros D Hj. unfold isClosed. pose proof D as (_ & Hr & _). rewrite Hr.
  destruct (fold_xor_spec bnd nr nc D fs (repeat false nr) (repeat_length false nr) Hj) as [L N].
  rewrite forallb_negb_nth, L. split; intros H i Hi.
  - specialize (H i Hi). rewrite (N i Hi), nth_repeat, xorb_false_l in H. exact H.
  - rewrite (N i Hi), nth_repeat, xorb_false_l. now apply H.
Qed.

Section Names.
  Variable r : rep.
  Hypothesis HS : sinv r.
  Let P : pinv r := s_p r HS.
  Variable k' : nat.              (* the faces offered have order S k' *)
  Hypothesis Hk : S k' < r_nord r.

  Definition cfs_of (fs : list nat) : list name := map (fun i => nth i (simplicesOfOrder r (S k')) (NInt 0)) fs.

  Lemma bnd_dims : dims (boundaryOperator r (S k')) (length (simplicesOfOrder r k')) (length (simplicesOfOrder r (S k'))).
  Proof.
    unfold boundaryOperator. simpl (S k' =? 0). cbv iota.
    rewrite (proj2 (Nat.leb_gt _ _) Hk), !simplicesOfOrder_below by lia. exact (sinv_bnd_dims r k' HS Hk).
  Qed.

  Lemma closed_names (fs : list nat) : (forall j, In j fs -> j < length (simplicesOfOrder r (S k'))) ->
    (isClosed (boundaryOperator r (S k')) fs = true <->
     forall w, parity (map (fun f => memn w (faces r f)) (cfs_of fs)) = false).
  Proof.
    intros Hj. rewrite (isClosed_parity _ _ _ fs bnd_dims Hj).
    assert (E : forall i t, nth_error (simplicesOfOrder r k') i = Some t ->
                parity (map (fun j => mentry (boundaryOperator r (S k')) i j) fs) =
                parity (map (fun f => memn t (faces r f)) (cfs_of fs))).
    { intros i t Ht. unfold cfs_of. rewrite map_map. apply parity_ext. intros j Hin.
      apply eq_true_iff_eq. rewrite memn_In.
      apply (boundary_entries r k' i j _ t HS); [|exact Ht]. apply nth_error_nth'. exact (Hj j Hin). }
    split.
    - intros H w. destruct (In_dec name_eq_dec w (simplicesOfOrder r k')) as [Hin|Hn].
      + apply In_nth_error in Hin. destruct Hin as (i & Hi). rewrite <- (E i w Hi). apply H.
        apply nth_error_Some. congruence.
      + rewrite (parity_ext _ (fun _ => false)); [apply parity_false|].
        intros f Hf. destruct (memn w (faces r f)) eqn:Em; auto. exfalso. apply Hn. apply memn_In in Em.
        apply in_map_iff in Hf. destruct Hf as (j & <- & Hjn).
        destruct (proj1 (listed_assoc r _ (S k') P) (nth_In _ (NInt 0) (Hj j Hjn))) as (j' & As).
        destruct (face_is_simplex r HS _ w k' j' As Em) as (i & Aw). apply (listed_assoc r w k' P). now exists i.
    - intros H i Hi. destruct (nth_error (simplicesOfOrder r k') i) as [t|] eqn:Et.
      + rewrite (E i t Et). apply H.
      + apply nth_error_None in Et. lia.
  Qed.
End Names.

Lemma combs_sub {A} (k : nat) : forall (l : list A) c, In c (combs k l) -> incl c l /\ (NoDup l -> NoDup c).
Proof.
  induction k as [|k IH]; intros l c H.
  - assert (c = []) by (destruct l; simpl in H; destruct H as [H|H]; auto; destruct H). subst c.
    split; [intros x Hx; destruct Hx | constructor].
  - induction l as [|x t IHl]; simpl in H; [destruct H|]. apply in_app_or in H. destruct H as [H|H].
    + apply in_map_iff in H. destruct H as (c0 & <- & Hc0). destruct (IH t c0 Hc0) as [Hi Hn]. split.
      * intros y [<-|Hy]; [now left | right; now apply Hi].
      * intros Hnd. inversion Hnd as [|? ? Hx Ht]; subst. constructor; [|now apply Hn]. intros Hin. apply Hx. now apply Hi.
    + destruct (IHl H) as [Hi Hn]. split; [intros y Hy; right; now apply Hi|].
      intros Hnd. inversion Hnd; subst. now apply Hn.
Qed.

Lemma last_map_Some {A} (l : list A) : last (map Some l) None = None -> l = [].
Proof. destruct l as [|a l _] using rev_ind; [reflexivity|]. rewrite map_last, last_last. discriminate. Qed.

Lemma swf_ok r fs o : simplexWithFaces r fs = Ok o ->
  o = last (map Some (filter (fun s => seteq (faces r s) fs) (simplicesOfOrder r (length fs - 1)))) None.
Proof.
  unfold simplexWithFaces. intros H. destruct (length fs <=? 1); [discriminate|].
  destruct (all_orders r fs) as [os|e]; [|discriminate].
  destruct (forallb (fun o => o =? length fs - 1 - 1) os); [|discriminate]. now injection H.
Qed.

Lemma swf_none r fs : simplexWithFaces r fs = Ok None ->
  forall s, In s (simplicesOfOrder r (length fs - 1)) -> seteq (faces r s) fs = false.
Proof.
  intros H s Hs. apply swf_ok in H. symmetry in H. apply last_map_Some in H.
  destruct (seteq (faces r s) fs) eqn:E; auto. exfalso.
  assert (Hin : In s (filter (fun s0 => seteq (faces r s0) fs) (simplicesOfOrder r (length fs - 1))))
    by (apply filter_In; auto).
  rewrite H in Hin. destruct Hin.
Qed.

Lemma closed_good_faces r k fs : vinv r -> NoDup fs -> length fs = S (S (S k)) ->
  (forall f, In f fs -> exists j, assoc f (r_simp r) = Some (S k, j)) ->
  (forall w, parity (map (fun f => memn w (faces r f)) fs) = false) ->
  simplexWithFaces r fs = Ok None -> good_faces r fs.
Proof.
  intros Hv Hnd Hlen Hord Hcl Hn. right. intros B [HB Hspan].
  destruct (min_cycle r Hv k fs Hnd Hlen Hord Hcl) as (B0 & NB0 & LB0 & I0 & C0).
  assert (SB : sameset B B0).
  { intros p. rewrite Hspan. split; [intros (f & Hf & Hp); now apply (I0 f Hf) | apply C0]. }
  split; [rewrite (NoDup_same_length B B0 HB NB0 SB); congruence|].
  intros t Ct Ss.
  assert (Ss0 : sameset (basisOf r t) B0) by (intros x; rewrite (Ss x); apply SB).
  destruct (order_of_basis r t B0 Hv Ct NB0 Ss0) as (j & At). rewrite LB0 in At. simpl in At.
  pose proof (faces_sameset_fs r Hv k fs Hnd Hlen Hord B0 NB0 LB0 I0 t j At Ss0) as Sf.
  assert (E : seteq (faces r t) fs = true) by (now apply seteq_sameset).
  rewrite (swf_none r fs Hn t) in E; [discriminate|].
  rewrite Hlen. simpl. apply (listed_assoc r t _ (vinv_pinv r Hv)). now exists j.
Qed.

Lemma cps_order_inv (J : rep -> Prop) r k newk1 nss maxk r' nss' maxk' x :
  J r ->
  (forall ra fs rb y, J ra -> In fs (combs (S k) (seq 0 (length (simplicesOfOrder r (k - 1))))) ->
     isClosed (boundaryOperator r (k - 1)) fs = true ->
     c_simplexWithFaces ra (map (fun i => nth i (simplicesOfOrder ra (k - 1)) (NInt 0)) fs) = Ok None ->
     addSimplex ra (map (fun i => nth i (simplicesOfOrder ra (k - 1)) (NInt 0)) fs) None None = (rb, y) -> J rb) ->
  cps_order r k newk1 nss maxk = (r', nss', maxk', x) -> J r'.
Proof. exact (cps_order_keeps J r k newk1 nss maxk r' nss' maxk' x). Qed.

Lemma NoDup_map_nth (l : list name) d : NoDup l -> forall idxs, NoDup idxs -> (forall j, In j idxs -> j < length l) ->
  NoDup (map (fun i => nth i l d) idxs).
Proof.
  intros Hl. induction idxs as [|i t IH]; intros Hn Hj; simpl; [constructor|].
  inversion Hn as [|? ? Hi Ht]; subst. constructor; [|apply IH; auto; intros; apply Hj; now right].
  intros Hin. apply in_map_iff in Hin. destruct Hin as (j & E & Hjt).
  assert (i = j); [|subst; contradiction].
  symmetry. apply (proj1 (NoDup_nth l d) Hl); auto; [apply Hj; now right | apply Hj; now left].
Qed.

(* the state while one order is being completed *)
Record fl (r ra : rep) (k1 : nat) : Prop :=
  { fl_v : vinv ra; fl_e : ext2 r ra; fl_l : simplicesOfOrder ra k1 = simplicesOfOrder r k1;
    fl_b : forall s, containsSimplex r s = true -> basisOf ra s = basisOf r s }.

Lemma cfs_facts r k0 fs : pinv r ->
  In fs (combs (S (S (S k0))) (seq 0 (length (simplicesOfOrder r (S k0))))) ->
  (forall j, In j fs -> j < length (simplicesOfOrder r (S k0))) /\ S k0 < r_nord r /\
  NoDup (cfs_of r k0 fs) /\ length (cfs_of r k0 fs) = S (S (S k0)) /\
  (forall f, In f (cfs_of r k0 fs) -> exists j, assoc f (r_simp r) = Some (S k0, j)).
Proof.
  intros P Hfs. pose proof (combs_length _ _ _ Hfs) as Lfs. destruct (combs_sub _ _ _ Hfs) as [Ifs Nfs].
  assert (Hj : forall j, In j fs -> j < length (simplicesOfOrder r (S k0))).
  { intros j Hin. apply Ifs, in_seq in Hin. lia. }
  assert (Hk : S k0 < r_nord r).
  { destruct fs as [|j0 t]; [discriminate|]. specialize (Hj j0 (or_introl eq_refl)).
    unfold simplicesOfOrder in Hj. destruct (S k0 <? r_nord r) eqn:E; [now apply Nat.ltb_lt in E | simpl in Hj; lia]. }
  split; [exact Hj|]. split; [exact Hk|]. split; [|split; [unfold cfs_of; now rewrite map_length|]].
  - apply NoDup_map_nth; [|apply Nfs, seq_NoDup|exact Hj].
    rewrite simplicesOfOrder_idxk by exact P. now apply pinv_nodup_order.
  - intros f Hf. apply (listed_assoc r f (S k0) P). apply in_map_iff in Hf. destruct Hf as (j & <- & Hin).
    apply nth_In. now apply Hj.
Qed.

Lemma fl_step r k0 ra fs rb y : vinv r -> fl r ra (S k0) ->
  In fs (combs (S (S (S k0))) (seq 0 (length (simplicesOfOrder r (S k0))))) ->
  isClosed (boundaryOperator r (S k0)) fs = true ->
  c_simplexWithFaces ra (map (fun i => nth i (simplicesOfOrder ra (S k0)) (NInt 0)) fs) = Ok None ->
  addSimplex ra (map (fun i => nth i (simplicesOfOrder ra (S k0)) (NInt 0)) fs) None None = (rb, y) ->
  fl r rb (S k0).
Proof.
  intros Hv [Va Ea La Ba] Hfs Hcl Hswf Hadd.
  pose proof (vinv_sinv r Hv) as HS. pose proof (vinv_sinv ra Va) as HSa.
  rewrite La in Hswf, Hadd. fold (cfs_of r k0 fs) in Hswf, Hadd.
  destruct (cfs_facts r k0 fs (s_p r HS) Hfs) as (Hj & Hk & Ncfs & Lcfs & Hcfs).
  set (cfs := cfs_of r k0 fs) in *.
  assert (Good : good_faces ra cfs).
  { apply (closed_good_faces ra k0 cfs Va Ncfs Lcfs).
    - intros f Hf. destruct (Hcfs f Hf) as (j & A). exact (ext2_assoc r ra f (S k0) j Ea A).
    - intros w. rewrite (parity_ext _ (fun f => memn w (faces r f))).
      + apply (proj1 (closed_names r HS k0 Hk fs Hj) Hcl).
      + intros f Hf. destruct (Hcfs f Hf) as (j & A).
        destruct (e_old r ra Ea f (assoc_contains r f (S k0) j A)) as (_ & _ & F). now rewrite F.
    - exact Hswf. }
  constructor.
  - eapply addSimplex_vinv; eauto.
  - apply (ext2_trans r ra rb Ea). apply (ext2_addSimplex ra cfs rb y HSa); [lia | exact Hadd].
  - destruct y as [n|e].
    + rewrite (addSimplex_listing ra cfs None None rb n HSa Hadd). rewrite Lcfs.
      replace (S k0 =? S (S (S k0)) - 1) with false; [exact La|]. symmetry. apply Nat.eqb_neq. lia.
    + apply addSimplex_atomic in Hadd. destruct Hadd as [Hs _].
      destruct (same_obs_queries ra rb Hs) as (_ & _ & _ & _ & _ & _ & Ql & _). rewrite Ql. exact La.
  - intros s Hs. rewrite <- (Ba s Hs). destruct (e_old r ra Ea s Hs) as (Ca & _).
    destruct y as [n|e].
    + destruct (addSimplex_effect ra cfs None None rb n HSa Hadd) as (_ & _ & _ & _ & Hold' & _).
      destruct (Hold' s Ca) as (_ & _ & _ & B). exact B.
    + apply addSimplex_atomic in Hadd. destruct Hadd as [Hs' _].
      destruct (same_obs_queries ra rb Hs') as (_ & _ & _ & _ & Qb & _). apply Qb.
Qed.

(* ext2, and every simplex of r keeps its points: what a whole run of the sweep does to the complex it started from *)
Definition ext2b (r r' : rep) : Prop :=
  ext2 r r' /\ forall s, containsSimplex r s = true -> basisOf r' s = basisOf r s.
Lemma ext2b_refl r : sinv r -> ext2b r r.
Proof. intros H. split; [now apply ext2_refl | reflexivity]. Qed.
Lemma ext2b_trans a b c : ext2b a b -> ext2b b c -> ext2b a c.
Proof.
  intros [E1 B1] [E2 B2]. split; [eapply ext2_trans; eauto|]. intros s Hs.
  destruct (e_old a b E1 s Hs) as (Cb & _). rewrite (B2 s Cb). now apply B1.
Qed.

Lemma cps_order_vinv r k newk1 nss maxk r' nss' maxk' x : vinv r -> 2 <= k ->
  cps_order r k newk1 nss maxk = (r', nss', maxk', x) -> vinv r' /\ ext2b r r'.
Proof.
  intros Hv Hk H. destruct k as [|[|k0]]; [lia|lia|].
  assert (F : fl r r' (S k0)); [|destruct F as [V E _ B]; split; [exact V | split; [exact E | exact B]]].
  apply (cps_order_inv (fun ra => fl r ra (S k0)) r (S (S k0)) newk1 nss maxk r' nss' maxk' x); [| |exact H].
  - constructor; [exact Hv | apply ext2_refl; exact (vinv_sinv r Hv) | reflexivity | reflexivity].
  - intros ra fs rb y. apply (fl_step r k0 ra fs rb y Hv).
Qed.

Lemma vinv_ext2b_refl r : vinv r -> ext2b r r.
Proof. intros Hv. apply ext2b_refl. exact (vinv_sinv r Hv). Qed.

Theorem completePotentialSimplices_vinv r nss r' x : vinv r ->
  completePotentialSimplices r nss = (r', x) -> vinv r' /\ ext2b r r'.
Proof. exact (completePotentialSimplices_rel vinv ext2b vinv_ext2b_refl ext2b_trans cps_order_vinv r nss r' x). Qed.

Theorem growFlagComplex_vinv r news r' x : vinv r -> growFlagComplex r news = (r', x) -> vinv r' /\ ext2b r r'.
Proof. exact (growFlagComplex_rel vinv ext2b vinv_ext2b_refl ext2b_trans cps_order_vinv r news r' x). Qed.

Definition edge_of (r : rep) (p q : name) : Prop :=
  exists e, In e (simplicesOfOrder r 1) /\ sameset (basisOf r e) [p; q].

Lemma edge_of_pair r e p q : vinv r -> p <> q -> containsSimplex r e = true -> sameset (basisOf r e) [p; q] ->
  edge_of r p q.
Proof.
  intros Hv Ne Ce Se. exists e. split; [|exact Se].
  destruct (order_of_basis r e [p; q] Hv Ce (nodup2 p q Ne) Se) as (j & A).
  apply (listed_assoc r e 1 (vinv_pinv r Hv)). now exists j.
Qed.

Lemma edge_of_sym r p q : edge_of r p q -> edge_of r q p.
Proof. intros (e & He & Se). exists e. split; [exact He|]. intros x. rewrite (Se x). simpl. tauto. Qed.

Lemma simplex_is_clique r t p q : vinv r -> containsSimplex r t = true ->
  In p (basisOf r t) -> In q (basisOf r t) -> p <> q -> edge_of r p q.
Proof.
  intros Hv Ct Hp Hq Ne.
  destruct (closed_under_subsets r Hv t [p; q] Ct (nodup2 p q Ne)) as (e & Ce & Se).
  - discriminate.
  - intros z [<-|[<-|[]]]; assumption.
  - exact (edge_of_pair r e p q Hv Ne Ce Se).
Qed.

Lemma ext2b_edges r r' p q : vinv r -> vinv r' -> ext2b r r' -> edge_of r' p q -> edge_of r p q.
Proof.
  intros Hv Hv' [E B] (e & He & Se).
  pose proof (vinv_pinv r Hv) as P. pose proof (vinv_pinv r' Hv') as P'.
  pose proof (proj1 (listed_iff_order r' e 1 P') He) as O'.
  assert (Ce : containsSimplex r e = true).
  { destruct (e_new r r' E e) as [Ce|(k & Ok' & Hk)]; [apply (contains_iff_listed r' e P'); eauto | exact Ce |].
    rewrite O' in Ok'. injection Ok' as <-. lia. }
  destruct (e_old r r' E e Ce) as (_ & O & _).
  exists e. split; [apply (listed_iff_order r e 1 P); congruence | rewrite <- (B e Ce); exact Se].
Qed.

(* C11, soundness: whatever flagComplex returns meets the vertex-set reading, and every simplex of it
   sits on a set of points that are pairwise joined by an edge of the source *)
Theorem flagComplex_sound hp src uid hp' r' : vinv src -> flagComplex hp src uid = (hp', r', Ok tt) ->
  vinv r' /\
  (forall t p q, containsSimplex r' t = true -> In p (basisOf r' t) -> In q (basisOf r' t) -> p <> q ->
     edge_of src p q).
Proof.
  intros Hv H. unfold flagComplex in H.
  destruct (copy_new hp (view_of src) uid) as [[hp1 c] [[]|e]] eqn:E0; [|discriminate].
  destruct (completePotentialSimplices c (flag_seed c)) as [c' x] eqn:E1. injection H as <- <- ->.
  destruct (copy_vinv hp src uid hp1 c Hv E0) as [Vc Bc].
  destruct (completePotentialSimplices_vinv c (flag_seed c) c' (Ok tt) Vc E1) as [V' E'].
  split; [exact V'|]. intros t p q Ct Hp Hq Ne.
  pose proof (simplex_is_clique c' t p q V' Ct Hp Hq Ne) as Ed.
  apply (ext2b_edges c c' p q Vc V' E') in Ed. destruct Ed as (e & He & Se).
  exists e. split.
  - rewrite <- (copy_listing_per_order hp src uid hp1 c (vinv_cinv src Hv) E0 1). exact He.
  - intros z. rewrite <- (Se z). symmetry. apply Bc.
    apply (contains_iff_listed c e (vinv_pinv c Vc)). eauto.
Qed.

Theorem growFlagComplex_sound r news r' x : vinv r -> growFlagComplex r news = (r', x) ->
  vinv r' /\
  (forall t p q, containsSimplex r' t = true -> In p (basisOf r' t) -> In q (basisOf r' t) -> p <> q ->
     edge_of r p q).
Proof.
  intros Hv H. destruct (growFlagComplex_vinv r news r' x Hv H) as [V' E'].
  split; [exact V'|]. intros t p q Ct Hp Hq Ne.
  apply (ext2b_edges r r' p q Hv V' E'). eapply simplex_is_clique; eauto.
Qed.
