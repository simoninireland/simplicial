(* BulkVinv.v -- bulk addition keeps the vertex-set reading (C01): when addSimplicesFrom (no renaming; also
   copy(target)) of a complex that meets the vertex-set reading into one that meets it succeeds, the result meets it,
   every simplex with the points it has where it comes from.  An accepted bulk add shares no name with the receiver
   (each add would be refused), hence no point, hence no vertex set.  Plain Coq. *)
From Coq Require Import String ZArith Bool Arith List Lia.
From SV Require Import Names NamesFacts ListFacts Rep Fresh Complex Atomic RepInv ReachGen Shapes Incidence AddEffect
                       Closed ClosedReach AddBasis BasisInv CopyFaithful VInv AwbSpec VSets Homology ComposeProofs VIso2 CopyAttrs.
Import ListNotations.
Open Scope nat_scope.

Lemma bulk_add_new_names : forall (src : srcview) hp r st ns hp' r' st' ns',
  sinv r -> addFrom_loop hp r RNone st src ns = (hp', r', st', Ok ns') ->
  forall s, In s (map fst src) -> containsSimplex r s = false.
Proof.
  induction src as [|[s [fs h]] rest IH]; intros hp r st ns hp' r' st' ns' Hinv H s0 Hs0; [destruct Hs0|].
  cbn [addFrom_loop] in H. cbn [rl_apply] in H. rewrite name_eqb_refl in H. simpl negb in H. cbv iota in H. simpl andb in H. cbv iota in H.
  rewrite rl_map_none in H.
  destruct (alloc r) as [r1 h'] eqn:Ea.
  assert (Hs1 : same_obs r r1) by (pose proof (same_obs_alloc r) as X; now rewrite Ea in X).
  assert (Hinv1 : sinv r1) by (eapply sinv_same_obs; eauto).
  destruct (same_obs_queries r r1 Hs1) as (_ & _ & _ & _ & _ & Qc & _).
  destruct (addSimplex r1 fs (Some s) (Some h')) as [r2 [id|e]] eqn:E; [|discriminate].
  destruct (addSimplex_given r1 fs s h' r2 id E) as (-> & Cs & _).
  destruct (addSimplex_effect r1 fs (Some s) (Some h') r2 s Hinv1 E) as (_ & _ & _ & _ & _ & Hall).
  destruct Hs0 as [<-|Hs0].
  - simpl. now rewrite <- Qc.
  - assert (Hinv2 : sinv r2) by (eapply addSimplex_sinv; eauto).
    pose proof (IH _ _ _ _ _ _ _ _ Hinv2 H s0 Hs0) as C2. rewrite Hall in C2. apply orb_false_iff in C2. destruct C2 as [C2 _].
    now rewrite <- Qc.
Qed.

Theorem bulk_add_vinv hp r src st ns hp' r' st' ns' : vinv r -> vinv src ->
  addFrom_loop hp r RNone st (view_of src) ns = (hp', r', st', Ok ns') ->
  vinv r' /\ forall s, containsSimplex r' s = true -> sameset (basisOf r' s) (basisOf (if containsSimplex r s then r else src) s).
Proof.
  intros Vr Vs H.
  pose proof (vinv_sinv r Vr) as Sr. pose proof (vinv_pinv src Vs) as Ps.
  destruct (bulk_add_faithful (view_of src) hp r st ns hp' r' st' ns' Sr H) as (Sr' & Hsrc & Hkeep & Hmem).
  pose proof (bulk_add_new_names (view_of src) hp r st ns hp' r' st' ns' Sr H) as Hnew.
  assert (Names : forall s, In s (map fst (view_of src)) <-> containsSimplex src s = true).
  { intros s. unfold view_of. rewrite map_map. simpl. rewrite map_id. apply In_simplices_iff. exact Ps. }
  assert (Bd : bcinv r').
  { eapply (addFrom_loop_I bcinv); eauto using bcinv_same_obs, addSimplex_bcinv. exact (v_b r Vr). }
  apply (vinv_union r src r' Vr Vs Bd).
  - intros s Cs' Csr. destruct (Hkeep s Csr) as (_ & O & _ & F & _). split; [exact O|]. intros t. now rewrite F.
  - intros s Cs' Csr. rewrite Hmem, Csr in Cs'. simpl in Cs'. apply memn_In in Cs'. pose proof (proj1 (Names s) Cs') as Css.
    split; [exact Css|].
    destruct (Hsrc s (faces src s) (match assoc s (r_attr src) with Some h => h | None => (0, 0) end)) as (_ & O & F).
    { unfold view_of. apply in_map_iff. exists s. split; [reflexivity|]. now apply (In_simplices_iff src s Ps). }
    split; [|exact F]. rewrite O. symmetry. apply order_by_faces; [apply vinv_cinv, Vs | exact Css].
  - intros s Css Csr. exfalso. rewrite (Hnew s (proj2 (Names s) Css)) in Csr. discriminate.
  - intros s t Css Ctr Hst. exfalso. destruct (basis_nonempty src s Vs Css) as (p & Hp).
    destruct (basis_in_points src s p Ps Hp) as (ip & Ap).
    destruct (basis_in_points r t p (vinv_pinv r Vr) (proj2 (Hst p) Hp)) as (ip' & Ap').
    pose proof (assoc_contains r p _ _ Ap') as Cpr.
    rewrite (Hnew p (proj2 (Names p) (assoc_contains src p _ _ Ap))) in Cpr. discriminate.
Qed.

Theorem addSimplicesFrom_vinv hp r src hp' r' st ns' : vinv r -> vinv src ->
  addSimplicesFrom hp r (view_of src) RNone = (hp', r', st, Ok ns') -> vinv r'.
Proof. intros Vr Vs H. unfold addSimplicesFrom in H. exact (proj1 (bulk_add_vinv _ _ _ _ _ _ _ _ _ Vr Vs H)). Qed.

Theorem copy_into_vinv hp src target hp' r' : vinv target -> vinv src ->
  copy_into hp (view_of src) target = (hp', r', Ok tt) -> vinv r'.
Proof.
  intros Vt Vs H. unfold copy_into in H.
  destruct (negb (length (intern (map fst (view_of src)) (simplices target false)) =? 0)); [discriminate|].
  destruct (addSimplicesFrom hp target (view_of src) RNone) as [[[hp1 r1] st] [l|e]] eqn:E; [|discriminate].
  injection H as _ <-. eapply addSimplicesFrom_vinv; [exact Vt|exact Vs|exact E].
Qed.
