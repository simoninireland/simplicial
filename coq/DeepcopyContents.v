(* Contents of copy.deepcopy: entry by entry, the dictionary of the copy holds what the source's
   dictionary held when the call was made (for a uid that owns no dictionary of the source, as the
   fresh uid of exec does). *)
From Coq Require Import String ZArith Bool Arith List Lia.
Import ListNotations.
From SV Require Import Names NamesFacts ListFacts Rep Fresh Complex Atomic RepInv World WorldProofs DeepcopyFrame.

Theorem deepcopy_contents hp r uid hp' r' :
  deepcopy_rep hp r uid = (hp', r') ->
  Forall (fun p => fst (snd p) <> uid) (r_attr r) ->
  Forall2 (fun q p => fst q = fst p /\ fst (snd q) = uid /\ heap_get hp' (snd q) = heap_get hp (snd p))
          (r_attr r') (r_attr r).
Proof.
  intros H. destruct (deepcopy_entries _ _ _ _ _ H) as [_ F].
  induction F as [|q p l' l (Hq & Hu & Hg) _ IH]; intros Hown; constructor; inversion Hown; auto.
Qed.

Theorem deepcopy_contents_owned hp r uid hp' r' :
  owned r -> r_uid r <> uid -> deepcopy_rep hp r uid = (hp', r') ->
  Forall2 (fun q p => fst q = fst p /\ fst (snd q) = uid /\ heap_get hp' (snd q) = heap_get hp (snd p))
          (r_attr r') (r_attr r).
Proof.
  intros Ho Hne H. apply (deepcopy_contents _ _ _ _ _ H).
  apply Forall_forall. intros [s h] Hin. cbn [fst snd]. rewrite (Ho _ _ Hin). exact Hne.
Qed.
