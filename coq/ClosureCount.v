(* ClosureCount.v -- closureOf(s) has no repeats and exactly 2^(k+1) - 1 elements. *)
From Coq Require Import String ZArith Bool Arith List Lia.
From SV Require Import Names NamesFacts ListFacts Rep Fresh Complex Atomic RepInv Shapes Incidence AddEffect
                       Closed ClosedReach AddBasis BasisInv Duality DeleteEffect CopyFaithful VInv AwbSpec.
From SV Require Import VSets.
Import ListNotations.
Open Scope nat_scope.

Lemma NoDup_concat_tagged {A} (f : A -> nat) : forall (lv : list (list A)) (tags : list nat),
  Forall2 (fun l n => NoDup l /\ forall x, In x l -> f x = n) lv tags -> NoDup tags -> NoDup (concat lv).
Proof.
  induction lv as [|l lv IH]; intros tags HF Ht; simpl; [constructor|].
  inversion HF as [|? n ? tags' [Hl Hn] HF']; subst. inversion Ht as [|? ? Hnn Ht']; subst.
  apply NoDup_app'; [exact Hl|eapply IH; eauto|].
  intros x Hx Hc. apply in_concat in Hc. destruct Hc as (l' & Hl' & Hx').
  apply Hnn. clear IH Ht Hl Ht' HF Hnn. revert tags' HF'. induction lv as [|l0 lv IH]; intros tags' HF'; [destruct Hl'|].
  inversion HF' as [|? n0 ? tags'' [_ Hn0] HF'']; subst. destruct Hl' as [->|Hl'].
  - left. rewrite <- (Hn x Hx). symmetry. now apply Hn0.
  - right. eapply IH; eauto.
Qed.

Lemma Forall2_rev {A B} (R : A -> B -> Prop) l m : Forall2 R l m -> Forall2 R (rev l) (rev m).
Proof.
  induction 1; simpl; [constructor|]. apply Forall2_app; auto.
Qed.

Fixpoint down (k : nat) : list nat := match k with 0 => [0] | S k' => S k' :: down k' end.
Lemma In_down k x : In x (down k) <-> x <= k.
Proof. induction k; simpl; [lia|]. rewrite IHk. lia. Qed.
Lemma NoDup_down k : NoDup (down k).
Proof.
  induction k; simpl.
  - constructor; [intros []|constructor].
  - constructor; [rewrite In_down; lia|exact IHk].
Qed.

Definition ord (r : rep) (t : name) : nat := match assoc t (r_simp r) with Some (k, _) => k | None => 0 end.

Lemma closure_levels_tagged r : sinv r -> forall k cur, NoDup cur ->
  (forall x, In x cur -> exists j, assoc x (r_simp r) = Some (k, j)) ->
  Forall2 (fun l n => NoDup l /\ forall x, In x l -> ord r x = n) (closure_levels r k cur) (down k).
Proof.
  intros HS. induction k as [|k IH]; intros cur Nd Hc; simpl.
  - constructor; [|constructor]. split; auto. intros x Hx. destruct (Hc x Hx) as (j & Ax). unfold ord. now rewrite Ax.
  - constructor.
    + split; auto. intros x Hx. destruct (Hc x Hx) as (j & Ax). unfold ord. now rewrite Ax.
    + apply IH; [apply NoDup_dedupn|].
      intros x Hx. apply (proj1 (In_dedupn _ _)) in Hx. apply in_flat_map in Hx. destruct Hx as (y & Hy & Hx).
      destruct (Hc y Hy) as (j & Ay). exact (face_is_simplex r HS y x k j Ay Hx).
Qed.

Theorem closureOf_nodup r s rev L : sinv r -> closureOf r s rev false = Ok L -> NoDup L.
Proof.
  intros HS H. unfold closureOf, orderOf in H. destruct (assoc s (r_simp r)) as [[k j]|] eqn:As; [|discriminate].
  injection H as <-.
  assert (T : Forall2 (fun l n => NoDup l /\ forall x, In x l -> ord r x = n) (closure_levels r k [s]) (down k)).
  { apply closure_levels_tagged; auto.
    - constructor; [intros []|constructor].
    - intros x [<-|[]]. eauto. }
  destruct rev.
  - eapply NoDup_concat_tagged; [exact T|apply NoDup_down].
  - eapply NoDup_concat_tagged; [apply Forall2_rev; exact T|]. apply NoDup_rev. apply NoDup_down.
Qed.

Fixpoint subseqs {A} (l : list A) : list (list A) :=
  match l with [] => [[]] | x :: t => map (cons x) (subseqs t) ++ subseqs t end.
Definition nonempty {A} (l : list A) : bool := match l with [] => false | _ => true end.

Lemma subseqs_incl {A} (l q : list A) : In q (subseqs l) -> incl q l.
Proof.
  revert q. induction l as [|x t IH]; simpl; intros q H.
  - destruct H as [<-|[]]. intros z [].
  - apply in_app_or in H. destruct H as [H|H].
    + apply in_map_iff in H. destruct H as (q' & <- & H). intros z [<-|Hz]; [now left|right; now apply (IH q')].
    + intros z Hz. right. now apply (IH q).
Qed.
Lemma subseqs_nodup {A} (l q : list A) : NoDup l -> In q (subseqs l) -> NoDup q.
Proof.
  revert q. induction l as [|x t IH]; simpl; intros q Nd H.
  - destruct H as [<-|[]]. constructor.
  - inversion Nd as [|? ? Hx Ht]; subst. apply in_app_or in H. destruct H as [H|H]; [|now apply IH].
    apply in_map_iff in H. destruct H as (q' & <- & H). constructor; [|now apply IH].
    intros Hq. apply Hx. now apply (subseqs_incl t q').
Qed.
Lemma NoDup_subseqs {A} (l : list A) : NoDup l -> NoDup (subseqs l).
Proof.
  induction l as [|x t IH]; simpl; intros Nd; [constructor; [intros []|constructor]|].
  inversion Nd as [|? ? Hx Ht]; subst. apply NoDup_app'.
  - apply FinFun.Injective_map_NoDup; [|now apply IH]. intros a b E. now injection E.
  - now apply IH.
  - intros q H1 H2. apply in_map_iff in H1. destruct H1 as (q' & <- & _).
    apply Hx. apply (subseqs_incl t (x :: q') H2). now left.
Qed.
Lemma count_nonempty {A} (l : list A) : S (length (filter nonempty (subseqs l))) = 2 ^ length l.
Proof.
  induction l as [|x t IH]; simpl; [reflexivity|].
  rewrite filter_app, app_length.
  assert (E : filter nonempty (map (cons x) (subseqs t)) = map (cons x) (subseqs t)).
  { generalize (subseqs t). induction l as [|a l IHl]; simpl; [reflexivity|]. now rewrite IHl. }
  rewrite E, map_length.
  assert (L2 : length (subseqs t) = 2 ^ length t).
  { clear. induction t as [|x t IH]; simpl; [reflexivity|]. rewrite app_length, map_length, IH. lia. }
  rewrite L2. lia.
Qed.

(* the sublist of B with the elements of q: a canonical list for the set q, when q lies inside B *)
Definition canon (B q : list name) : list name := filter (fun p => memn p q) B.

Lemma canon_sameset B q : incl q B -> sameset (canon B q) q.
Proof. intros Hi z. unfold canon. rewrite filter_In, memn_In. split; [tauto | auto]. Qed.
Lemma filter_is_subseq (B : list name) (f : name -> bool) : In (filter f B) (subseqs B).
Proof.
  induction B as [|x t IH]; simpl; [now left|]. apply in_or_app. destruct (f x); [left; now apply in_map|now right].
Qed.
Lemma canon_ext B q q' : sameset q q' -> canon B q = canon B q'.
Proof.
  intros H. apply filter_ext. intros p. destruct (memn p q') eqn:M.
  - apply memn_In, H, memn_In, M.
  - apply memn_false. intros Hc. apply H, memn_In in Hc. congruence.
Qed.
Lemma filter_subseq (B q : list name) : NoDup B -> In q (subseqs B) -> filter (fun p => memn p q) B = q.
Proof.
  revert q. induction B as [|x t IH]; simpl; intros q Nd H.
  - destruct H as [<-|[]]. reflexivity.
  - inversion Nd as [|? ? Hx Ht]; subst. apply in_app_or in H. destruct H as [H|H].
    + apply in_map_iff in H. destruct H as (q' & <- & H). simpl. rewrite name_eqb_refl. simpl. f_equal.
      transitivity (filter (fun p => memn p q') t); [|now apply IH]. apply filter_ext_in. intros p Hp. simpl.
      destruct (name_eqb_spec p x) as [->|Hne]; [contradiction|reflexivity].
    + destruct (memn x q) eqn:M; [|now apply IH].
      apply memn_In in M. exfalso. apply Hx. now apply (subseqs_incl t q).
Qed.
Lemma subseqs_sameset_eq B q q' : NoDup B -> In q (subseqs B) -> In q' (subseqs B) -> sameset q q' -> q = q'.
Proof. intros Nd Hq Hq' H. rewrite <- (filter_subseq B q Nd Hq), <- (filter_subseq B q' Nd Hq'). now apply canon_ext. Qed.

(* as many elements as the basis of s has non-empty sublists *)
Theorem closureOf_count r s k j rev L : vinv r -> assoc s (r_simp r) = Some (k, j) ->
  closureOf r s rev false = Ok L -> S (length L) = 2 ^ (S k).
Proof.
  intros Hv As H. pose proof (vinv_sinv r Hv) as HS. pose proof (vinv_pinv r Hv) as P.
  pose proof (assoc_contains r s _ _ As) as Cs.
  pose proof (closureOf_nodup r s rev L HS H) as NdL.
  pose proof (closureOf_is_subsets r s rev L Hv Cs H) as Spec.
  set (B := basisOf r s). assert (NdB : NoDup B) by (apply basis_nodup; exact P).
  set (g := fun t => canon B (basisOf r t)).
  assert (Gs : forall t, In t L -> sameset (g t) (basisOf r t)) by (intros t Ht; apply canon_sameset, Spec, Ht).
  rewrite <- (v_card r Hv s k j As). fold B. rewrite <- (count_nonempty B). f_equal.
  rewrite <- (map_length g L). apply NoDup_same_length.
  - apply NoDup_map_inj_in; auto. intros a b Ha Hb E.
    apply (v_uniq r Hv); [apply Spec in Ha; tauto|apply Spec in Hb; tauto|].
    apply (sameset_trans _ (g a)); [apply sameset_sym, Gs, Ha | rewrite E; apply Gs, Hb].
  - apply NoDup_filter. now apply NoDup_subseqs.
  - intros q. rewrite in_map_iff, filter_In. split.
    + intros (t & <- & Ht). split; [apply filter_is_subseq|].
      destruct (basis_nonempty r t Hv (proj1 (proj1 (Spec t) Ht))) as (p & Hp). apply (Gs t Ht) in Hp.
      destruct (g t); [destruct Hp|reflexivity].
    + intros [Hq Hne]. pose proof (subseqs_incl B q Hq) as Hi. pose proof (subseqs_nodup B q NdB Hq) as Ndq.
      destruct (closed_under_subsets r Hv s q Cs Ndq) as (u & Cu & Su); auto.
      { intros ->. discriminate. }
      exists u. split; [rewrite <- (filter_subseq B q NdB Hq); apply canon_ext, Su|].
      apply Spec. split; auto. intros z Hz. apply Hi. now apply Su.
Qed.
