(* C01 -- every reachable complex is a well-formed complex.
   For every history: the listing invariant pinv (names are unique, simplices() lists each simplex exactly once
   and is the concatenation of the per-order listings in increasing order, orderOf/indexOf are the position in
   the listing, generated names never collide with a name in use) after every sequence of the representation's
   mutators, rejected calls included, and through every algorithm of base.py; closedness cinv (a simplex of
   order k >= 1 has exactly k+1 distinct faces of order k-1) and maxOrder() after every history of the public
   mutators; the vertex-set reading vinv (a simplex of order k is a set of k+1 points, no two simplices on one
   set, closed under non-empty subsets) after every in-contract history, kept by compose, by a bulk add without
   renaming and by subdivision.
   BOUNDED: the whole sentence as the boolean wfb for every complex on at most 4 labelled points, and again
   after every deletion / restriction / addition by basis / subdivision of it -- instances of the theorems
   about every complex with the vertex-set reading (SpecWf.v, SpecEffects.v), which the enumerated complexes
   have because each add by basis that builds them succeeds (evaluated, SpecBuild.v); of a subdivision the
   kernel evaluates what no theorem gives (SweepsProved.v).
   Left to the wf oracle: the vertex-set reading after addSimplex with a caller-supplied face list, after a
   bulk add under a renaming, and in the partial state of a rejected add by basis. *)
From Coq Require Import String ZArith Bool Arith List.
From SV Require Import Names NamesFacts ListFacts Rep Fresh Complex Atomic RepInv Reach Homology Filtration Gen World Small Sweeps Shapes AddEffect Closed ClosedReach VInv AwbSpec VReach VSets.
From SV Require Import TopOrder.
From SV Require VIso2 BulkVinv SubdivVinv SweepsProved SpecEffects.

Import ListNotations.

(* the invariant holds after any sequence of add / relabel / delete requests on the representation,
   whatever their arguments -- a rejected request is a step like any other *)
Theorem C01_reachable_invariant : forall uid ops, pinv (fold_left rstep ops (empty_rep uid)).
Proof. exact reachable_pinv. Qed.
Print Assumptions C01_reachable_invariant.

(* and it is kept by the public mutators of SimplicialComplex *)
Theorem C01_delete_keeps : forall r s r' x, pinv r -> deleteSimplex r s = (r', x) -> pinv r'.
Proof. exact deleteSimplex_pinv. Qed.
Print Assumptions C01_delete_keeps.
Theorem C01_restrict_keeps : forall r bs r' x, pinv r -> restrictBasisTo r bs = (r', x) -> pinv r'.
Proof. exact restrictBasisTo_pinv. Qed.
Print Assumptions C01_restrict_keeps.
Theorem C01_add_by_basis_keeps :
  forall r bs id attr r' x, pinv r -> c_addSimplexWithBasis r bs id attr = (r', x) -> pinv r'.
Proof. exact addSimplexWithBasis_pinv. Qed.
Print Assumptions C01_add_by_basis_keeps.
Theorem C01_subdivide_keeps : forall r s pts r' x, pinv r -> barycentricSubdivide r s pts = (r', x) -> pinv r'.
Proof. exact barycentricSubdivide_pinv. Qed.
Print Assumptions C01_subdivide_keeps.
Theorem C01_relabel_keeps : forall r rn r' st x, pinv r -> relabel r rn = (r', st, x) -> pinv r'.
Proof. exact relabel_pinv. Qed.
Print Assumptions C01_relabel_keeps.
Theorem C01_bulk_add_keeps :
  forall hp r src rn hp' r' st x, pinv r -> addSimplicesFrom hp r src rn = (hp', r', st, x) -> pinv r'.
Proof. exact addSimplicesFrom_pinv. Qed.
Print Assumptions C01_bulk_add_keeps.

(* observable consequences *)
Theorem C01_names_unique :
  forall r s k i k' i', pinv r ->
  nth_error (simplicesOfOrder r k) i = Some s -> nth_error (simplicesOfOrder r k') i' = Some s -> k = k' /\ i = i'.
Proof. exact listed_once. Qed.
Print Assumptions C01_names_unique.

Theorem C01_simplices_lists_each_once : forall r, pinv r -> NoDup (simplices r false).
Proof. exact simplices_nodup. Qed.
Print Assumptions C01_simplices_lists_each_once.

Theorem C01_listings_partition :
  forall r, pinv r -> simplices r false = concat (map (simplicesOfOrder r) (seq 0 (length (r_idx r)))).
Proof. exact simplices_by_order. Qed.
Print Assumptions C01_listings_partition.

Theorem C01_member_iff_listed :
  forall r s, pinv r -> (containsSimplex r s = true <-> exists k, In s (simplicesOfOrder r k)).
Proof. exact contains_iff_listed. Qed.
Print Assumptions C01_member_iff_listed.

(* newSimplex: the search terminates within its fuel and the name is not in the complex, whatever
   names (including look-alikes of generated names) the user chose *)
Theorem C01_auto_fresh :
  forall r d, exists i id, newSimplex r d = (set_seq r (S i), Ok id) /\ id = auto d i /\ r_seq r <= i /\
                           containsSimplex r id = false.
Proof. exact newSimplex_fresh. Qed.
Print Assumptions C01_auto_fresh.

(* non-vacuity: a history with a rejected call in the middle, names that look generated *)
Example C01_example :
  let r := fold_left rstep [OpAdd [] (Some (NStr "1d0")) None; OpAdd [] (Some (NInt 2)) None;
                            OpAdd [NStr "1d0"; NStr "zzz"] None None;
                            OpAdd [NStr "1d0"; NInt 2] None None; OpRelabel (NInt 2) (NTup [NInt 2]);
                            OpForceDelete (NStr "1d1")] (empty_rep 1) in
  simplices r false = [NStr "1d0"; NTup [NInt 2]; NStr "1d2"].
Proof. vm_compute. reflexivity. Qed.

(* BOUNDED: the full sentence of C01 -- k+1 distinct faces of order k-1,
   a basis of k+1 points, faces spanning the k-subsets of the basis, no shared basis, maxOrder the
   largest populated order, listings partitioning simplices() -- as the boolean wfb, for every
   complex on at most 4 labelled points, and again after every deletion / restriction / addition
   by basis / subdivision applied to it (wfb is part of each of these checkers) *)
Theorem C01_wellformed_upto4_partial : forall c, In c complexes4 ->
  fam_eq (fam (build c)) (closure_of c) && wfb (build c) && viewsb (build c) = true.
Proof. exact SpecEffects.built_complexes_upto4. Qed.
Print Assumptions C01_wellformed_upto4_partial.
Theorem C01_wellformed_after_mutation_upto4_partial : forall c, In c complexes4 ->
  chk_delete (build c) = true /\ chk_restrict (build c) = true /\ chk_addb (build c) = true /\ chk_subdiv (build c) = true.
Proof. intros c H. repeat split; [now apply SpecEffects.delete_upto4 | now apply SpecEffects.restrict_upto4 | now apply SpecEffects.addb_upto4 | now apply SweepsProved.subdiv_upto4]. Qed.
Print Assumptions C01_wellformed_after_mutation_upto4_partial.

(* every simplex ever added, on a complex of any history: the faces asked for are distinct, the
   new simplex has exactly them and the order |fs|-1, and nothing older changes *)
Theorem C01_added_simplex_has_exactly_its_faces :
  forall r fs id attr r' n, sinv r -> addSimplex r fs id attr = (r', Ok n) ->
  NoDup fs /\ orderOf r' n = Ok (length fs - 1) /\ (forall t, In t (faces r' n) <-> In t fs) /\
  (forall s, containsSimplex r s = true -> orderOf r' s = orderOf r s /\ faces r' s = faces r s /\ basisOf r' s = basisOf r s).
Proof.
  intros r fs id attr r' n Hinv H. destruct (addSimplex_effect r fs id attr r' n Hinv H) as (_ & Hnd & Ho & Hf & Hold & _).
  split; [exact Hnd|]. split; [exact Ho|]. split; [exact Hf|]. intros s Hs. destruct (Hold s Hs) as (A & _ & B & C). auto.
Qed.
Print Assumptions C01_added_simplex_has_exactly_its_faces.

(* EVERY HISTORY OF PUBLIC OPERATIONS (add by faces / by basis, ensureBasis, bulk add, delete, delete
   by basis, bulk delete, restrict, subdivide, relabel -- accepted or rejected, in any order): the
   closedness invariant cinv = shapes + "a simplex of order k >= 1 has exactly k+1 faces" holds *)
Theorem C01_public_histories_are_closed : forall uid ops, cinv (fold_left pstep ops (empty_rep uid)).
Proof. exact public_history_cinv. Qed.
Print Assumptions C01_public_histories_are_closed.
(* ... which says, in the words of the property: the faces of a simplex of order k are distinct,
   each is a simplex of the complex of order k-1, and there are exactly k+1 of them (none for a point) *)
Theorem C01_every_simplex_has_its_faces :
  forall r t k, cinv r -> orderOf r t = Ok k ->
  NoDup (faces r t) /\
  (forall u, In u (faces r t) -> containsSimplex r u = true /\ orderOf r u = Ok (k - 1)) /\
  length (faces r t) = (if Nat.eqb k 0 then 0 else S k).
Proof. exact faces_of_a_simplex. Qed.
Print Assumptions C01_every_simplex_has_its_faces.
(* the invariant survives deletion because deleteSimplex removes cofaces before faces *)
Theorem C01_delete_keeps_closed : forall r s r' x, cinv r -> deleteSimplex r s = (r', x) -> cinv r'.
Proof. exact deleteSimplex_cinv. Qed.
Print Assumptions C01_delete_keeps_closed.

(* THE VERTEX-SET READING, EVERY IN-CONTRACT HISTORY (add points, add by a duplicate-free basis of at
   least two names, delete a simplex / by basis / several, restrict, rename one simplex or many, in
   any order): the invariant vinv = closed + "basis = union of the faces' bases" + "a simplex of order
   k has exactly k+1 basis points" + "no two simplices have the same basis" holds at every point *)
Theorem C01_vertex_set_reading_at_every_point : forall uid ops, vinv (fold_left vstep ops (empty_rep uid)).
Proof. exact vertex_set_reading_at_every_point. Qed.
Print Assumptions C01_vertex_set_reading_at_every_point.
(* ... in the words of the property: a simplex of order k is a set of exactly k+1 distinct points of
   the complex, and a set of points names at most one simplex *)
Theorem C01_a_simplex_is_its_basis :
  forall r, vinv r ->
  (forall t k, orderOf r t = Ok k -> NoDup (basisOf r t) /\ length (basisOf r t) = S k /\
               forall p, In p (basisOf r t) -> orderOf r p = Ok 0) /\
  (forall t u, containsSimplex r t = true -> containsSimplex r u = true ->
               (forall p, In p (basisOf r t) <-> In p (basisOf r u)) -> t = u).
Proof. exact a_simplex_is_its_basis. Qed.
Print Assumptions C01_a_simplex_is_its_basis.
(* ... and the complex is closed under non-empty subsets: every non-empty set of points of a simplex
   carries a simplex of the complex *)
Theorem C01_closed_under_subsets :
  forall r, vinv r -> forall t B, containsSimplex r t = true ->
  NoDup B -> B <> nil -> incl B (basisOf r t) -> exists u, containsSimplex r u = true /\ sameset (basisOf r u) B.
Proof. exact closed_under_subsets. Qed.
Print Assumptions C01_closed_under_subsets.

(* EVERY HISTORY OF PUBLIC OPERATIONS: maxOrder() bounds every order, is -1 exactly when the complex holds
   nothing, and the order it names holds a simplex (the code steps the maximum down one order at a time) *)
Theorem C01_maxOrder_is_the_largest_populated_order :
  forall uid ops, let r := fold_left pstep ops (empty_rep uid) in
  (forall s k j, assoc s (r_simp r) = Some (k, j) -> Z.of_nat k <= maxOrder r)%Z /\
  ((maxOrder r = -1)%Z <-> forall s, containsSimplex r s = false) /\
  ((0 <= maxOrder r)%Z -> exists s j, assoc s (r_simp r) = Some (Z.to_nat (maxOrder r), j)).
Proof. exact maxOrder_is_largest_populated_order. Qed.
Print Assumptions C01_maxOrder_is_the_largest_populated_order.

(* compose: the composition of two complexes that meet the vertex-set reading meets it *)
Theorem C01_compose_keeps_the_vertex_set_reading :
  forall hp a c uid hp' d, vinv a -> vinv c -> Homology.compose hp a c None uid = (hp', d, Ok tt) -> vinv d.
Proof. intros hp a c uid hp' d Va Vc H. exact (proj1 (VIso2.compose_vinv hp a c uid hp' d Va Vc H)). Qed.
Print Assumptions C01_compose_keeps_the_vertex_set_reading.

(* bulk addition (addSimplicesFrom without a renaming, copy(target)): when a complex that meets the vertex-set reading
   is added to one that meets it and the call succeeds, the result meets it -- an accepted bulk add shares no name with
   the receiver, hence no point, hence no vertex set *)
Theorem C01_bulk_add_keeps_the_vertex_set_reading :
  (forall hp r src hp' r' st ns', vinv r -> vinv src ->
     addSimplicesFrom hp r (view_of src) RNone = (hp', r', st, Ok ns') -> vinv r') /\
  (forall hp src target hp' r', vinv target -> vinv src ->
     copy_into hp (view_of src) target = (hp', r', Ok tt) -> vinv r').
Proof. split; [exact BulkVinv.addSimplicesFrom_vinv|exact BulkVinv.copy_into_vinv]. Qed.
Print Assumptions C01_bulk_add_keeps_the_vertex_set_reading.

(* barycentric subdivision: when it succeeds on a complex that meets the vertex-set reading, the result meets it *)
Theorem C01_subdivide_keeps_the_vertex_set_reading :
  forall r s pts r' mid, vinv r -> barycentricSubdivide r s pts = (r', Ok mid) -> vinv r'.
Proof. exact SubdivVinv.barycentricSubdivide_vinv. Qed.
Print Assumptions C01_subdivide_keeps_the_vertex_set_reading.
