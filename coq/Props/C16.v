(* C16 -- compose is the name-respecting union, or a ValueError.
   For every pair of complexes: on success the result has exactly the simplices of both, those of a with a's
   faces and the others with c's, and success implies that the by-basis lookups found only compatible names;
   every simplex of the result has a dictionary of the result's own holding a's entries updated with c's, and
   no dictionary of another owner is written.  For operands that meet the vertex-set reading: compatible
   operands are composed, the result meets the reading, its family is the union.
   BOUNDED (kernel sweep, Sweeps.v): all 19 x 19 ordered pairs of complexes on at most 3 labelled points with
   names tied to vertex sets (all compatible): the result is the union, each operand a sub-complex of it with
   its names and faces; one single-name perturbation is rejected with ValueError.
   Left to the oracle: compose(c, target), the contents of the target's earlier simplices. *)
From Coq Require Import String ZArith Bool Arith List.
From SV Require Import Names Rep Complex Homology Filtration Gen World Small Sweeps NamesFacts RepInv Shapes ComposeProofs.
From SV Require Import VInv ComposeOk.


Theorem C16_union_upto3_partial : forall c1 c2, In c1 complexes3 -> In c2 complexes3 -> chk_compose c1 c2 = true.
Proof. exact compose_upto3. Qed.
Print Assumptions C16_union_upto3_partial.

Theorem C16_incompatible_rejected_example : chk_compose_incompatible = true.
Proof. exact sweep_compose_incompatible. Qed.
Print Assumptions C16_incompatible_rejected_example.

(* EVERY PAIR OF COMPLEXES: when a.compose(c) succeeds the result is the union -- it contains
   exactly the simplices of a and of c; those of a have the faces they have in a, the others the
   faces they have in c (and it satisfies the shape invariant) *)
Theorem C16_result_is_the_union :
  forall hp a c uid hp' d, pinv a -> pinv c -> compose hp a c None uid = (hp', d, Ok tt) ->
  sinv d /\
  (forall s, containsSimplex d s = containsSimplex a s || containsSimplex c s) /\
  (forall s, containsSimplex a s = true -> forall t, In t (faces d s) <-> In t (faces a s)) /\
  (forall s, containsSimplex c s = true -> containsSimplex a s = false -> forall t, In t (faces d s) <-> In t (faces c s)).
Proof. exact compose_is_union. Qed.
Print Assumptions C16_result_is_the_union.
(* ... and it succeeds only on compatible operands: the basis each simplex s of c has in c, looked up
   in a, is the basis of s itself when a has the name s, and of no simplex of a otherwise *)
Theorem C16_accepts_only_compatible :
  forall hp a c uid hp' d, pinv c -> compose hp a c None uid = (hp', d, Ok tt) ->
  forall s, containsSimplex c s = true ->
  c_simplexWithBasis a (basisOf c s) false = Ok (if containsSimplex a s then Some s else None).
Proof. exact compose_accepts_only_compatible. Qed.
Print Assumptions C16_accepts_only_compatible.

(* THE OTHER DIRECTION, for complexes that meet the vertex-set reading: when every name the two share denotes
   simplices on the same points (K1) and every point set they share carries the same name (K2), a.compose(c)
   succeeds -- and is then the union (C16_result_is_the_union) *)
Theorem C16_compatible_operands_are_composed :
  forall a c, vinv a -> vinv c ->
  (forall s, containsSimplex c s = true -> containsSimplex a s = true -> sameset (basisOf a s) (basisOf c s)) ->
  (forall s t, containsSimplex c s = true -> containsSimplex a t = true -> sameset (basisOf a t) (basisOf c s) -> t = s) ->
  forall hp uid, exists hp' d, compose hp a c None uid = (hp', d, Ok tt).
Proof. exact compose_succeeds. Qed.
Print Assumptions C16_compatible_operands_are_composed.

(* THE ATTRIBUTES of the result, whenever a.compose(c) succeeds (operands whose dictionaries belong to other owners
   than the new complex -- every two distinct complexes, C09): every simplex of the result has a dictionary of the
   result's own; it holds, for a simplex of both operands, a's dictionary updated with c's (c wins on a shared key:
   ComposeAttrs.merge), for a simplex of c only what c's dictionary holds, for a simplex of a only what a's holds;
   no dictionary of another owner -- in particular none of the operands' -- is written *)
From SV Require ComposeAttrs.
Theorem C16_attributes_of_the_composition :
  forall a c uid hp, pinv a -> pinv c ->
  (forall s h, assoc s (r_attr a) = Some h -> fst h <> uid) ->
  (forall s h, assoc s (r_attr c) = Some h -> fst h <> uid) -> uid <> 0 ->
  forall hp' d, compose hp a c None uid = (hp', d, Ok tt) ->
  (forall s, containsSimplex d s = true ->
     exists h', assoc s (r_attr d) = Some h' /\ fst h' = uid /\
       heap_get hp' h' =
         if containsSimplex c s then
           (if containsSimplex a s
            then ComposeAttrs.merge (heap_get hp (ComposeAttrs.cell a s)) (heap_get hp (ComposeAttrs.cell c s))
            else heap_get hp (ComposeAttrs.cell c s))
         else heap_get hp (ComposeAttrs.cell a s)) /\
  (forall h0, fst h0 <> uid -> heap_get hp' h0 = heap_get hp h0).
Proof. exact ComposeAttrs.compose_attrs. Qed.
Print Assumptions C16_attributes_of_the_composition.
(* the merge: c's entries are written over a's -- reading key k gives the (last) entry for k in c's dictionary if
   there is one, else a's entry *)
Theorem C16_merge_is_update :
  forall dc da k, dict_get (ComposeAttrs.merge da dc) k =
                  match dict_get (rev dc) k with Some v => Some v | None => dict_get da k end.
Proof. exact ComposeAttrs.merge_spec. Qed.
Print Assumptions C16_merge_is_update.

(* THE VERTEX-SET READING of the composition (for operands that meet it): the result meets it, every simplex has the
   points it has in the operand it comes from, and the family of vertex sets of the result is the union of the
   operands' families *)
From SV Require VIso2 FlagComplete.
Theorem C16_composition_meets_the_vertex_set_reading :
  forall hp a c uid hp' d, vinv a -> vinv c -> compose hp a c None uid = (hp', d, Ok tt) ->
  vinv d /\ forall s, containsSimplex d s = true -> sameset (basisOf d s) (basisOf (if containsSimplex a s then a else c) s).
Proof. exact VIso2.compose_vinv. Qed.
Print Assumptions C16_composition_meets_the_vertex_set_reading.
Theorem C16_family_of_the_composition_is_the_union :
  forall hp a c uid hp' d, vinv a -> vinv c -> compose hp a c None uid = (hp', d, Ok tt) ->
  forall B, FlagComplete.carried d B <-> FlagComplete.carried a B \/ FlagComplete.carried c B.
Proof. exact VIso2.compose_family. Qed.
Print Assumptions C16_family_of_the_composition_is_the_union.
