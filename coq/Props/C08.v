(* C08 -- queries and derived-complex constructors never modify their inputs.
   In the model every query is a function of the world that returns the world unchanged, and a copy-like
   constructor binds only its result variable and writes only heap cells of the new object's owner (of the
   target's owner when the caller supplies one).  Proved at the level of exec for copy of a complex or a
   filtration, deepcopy (with its contents), compose, flagComplex, JSON decoding, snap, vietorisRipsComplex and
   complexes(), accepted or rejected.  Whether the *code* behaves like that (in-place numpy updates, shared
   dictionaries) is what the correspondence and the before/after oracle check on every run (tested_only: the
   numpy aliasing of boundary matrices). *)
From Coq Require Import String ZArith Bool Arith List.
From SV Require Import Names NamesFacts ListFacts Rep Fresh Complex Atomic RepInv Homology Filtration Gen World WorldProofs CtorFrame DeepcopyFrame DeepcopyContents FiltCopyFrame ComplexesFrame IntoFrame.

(* any read-only query -- Betti numbers, normal forms, cycle bases, boundaries, Euler
   characteristic and integral, comparisons, ... -- returns the world it was given *)
Theorem C08_query_leaves_world : forall w v q w' o, exec w (CQuery v q) = (w', o) -> w' = w.
Proof. exact query_leaves_world. Qed.
Print Assumptions C08_query_leaves_world.

(* copy() of a complex or a filtration: every other variable is bound to what it was bound to *)
Theorem C08_copy_binds_only_its_result :
  forall w x v orders w' o y, exec w (CCopy x v orders) = (w', o) -> y <> x -> vget (w_vars w') y = vget (w_vars w) y.
Proof. intros w x v orders w' o y. now apply ctor_binds_only_result. Qed.
Print Assumptions C08_copy_binds_only_its_result.

(* ... and the attribute dictionaries that existed before are not written *)
Theorem C08_copy_writes_only_new_cells :
  forall hp src uid hp' r' x, copy_new hp src uid = (hp', r', x) ->
  forall h, fst h <> uid -> heap_get hp' h = heap_get hp h.
Proof. intros hp src uid hp' r' x H. now destruct (copy_new_fresh _ _ _ _ _ _ H) as (_ & _ & ?). Qed.
Print Assumptions C08_copy_writes_only_new_cells.

(* copy, deepcopy, compose, flagComplex, JSON decoding, snap, vietorisRipsComplex and one step of
   complexes() change no variable of the world but the one they bind *)
Theorem C08_constructors_bind_only_result :
  forall w c x w' o y, ctor_result c = Some x -> exec w c = (w', o) -> y <> x ->
  vget (w_vars w') y = vget (w_vars w) y.
Proof. exact ctor_binds_only_result. Qed.
Print Assumptions C08_constructors_bind_only_result.

(* copy.deepcopy: the attribute dictionaries that existed before are not written (uid is the new
   object's owner, fresh in exec) ... *)
Theorem C08_deepcopy_writes_only_new_cells :
  forall hp r uid hp' r', deepcopy_rep hp r uid = (hp', r') ->
  forall h, fst h <> uid -> heap_get hp' h = heap_get hp h.
Proof. intros hp r uid hp' r' H. now destruct (deepcopy_fresh _ _ _ _ _ H) as (_ & _ & ?). Qed.
Print Assumptions C08_deepcopy_writes_only_new_cells.

(* ... the result has the source's structure field by field, one attribute entry per entry of the
   source under the same names, and every dictionary of the result belongs to the new owner *)
Theorem C08_deepcopy_structure_and_ownership :
  forall hp r uid hp' r', deepcopy_rep hp r uid = (hp', r') ->
  (r_uid r' = uid /\ r_nord r' = r_nord r /\ r_simp r' = r_simp r /\ r_idx r' = r_idx r /\
   r_bnd r' = r_bnd r /\ r_bas r' = r_bas r /\ r_seq r' = r_seq r) /\
  map fst (r_attr r') = map fst (r_attr r) /\ Forall (fun q => fst (snd q) = uid) (r_attr r').
Proof.
  intros hp r uid hp' r' H. split; [exact (deepcopy_same_structure _ _ _ _ _ H)|].
  exact (deepcopy_attr_names_and_owner _ _ _ _ _ H).
Qed.
Print Assumptions C08_deepcopy_structure_and_ownership.

(* ... and, entry by entry, the copy's dictionary holds what the source's held at the call (uid owns
   no dictionary of the source: it is fresh in exec), whether or not names share a dictionary *)
Theorem C08_deepcopy_contents :
  forall hp r uid hp' r', deepcopy_rep hp r uid = (hp', r') ->
  Forall (fun p => fst (snd p) <> uid) (r_attr r) ->
  Forall2 (fun q p => fst q = fst p /\ fst (snd q) = uid /\ heap_get hp' (snd q) = heap_get hp (snd p))
          (r_attr r') (r_attr r).
Proof. exact deepcopy_contents. Qed.
Print Assumptions C08_deepcopy_contents.

(* stated with the ownership invariant every reachable complex meets (WorldProofs.owned): the deep
   copy is owned by the new uid, and holds the source's attribute values entry by entry *)
Theorem C08_deepcopy_of_an_owned_complex :
  forall hp r uid hp' r', owned r -> r_uid r <> uid -> deepcopy_rep hp r uid = (hp', r') ->
  (owned r' /\ r_uid r' = uid) /\
  Forall2 (fun q p => fst q = fst p /\ fst (snd q) = uid /\ heap_get hp' (snd q) = heap_get hp (snd p))
          (r_attr r') (r_attr r).
Proof.
  intros hp r uid hp' r' Ho Hne H. split; [destruct (deepcopy_fresh _ _ _ _ _ H) as (O & U & _); now split|].
  exact (deepcopy_contents_owned _ _ _ _ _ Ho Hne H).
Qed.
Print Assumptions C08_deepcopy_of_an_owned_complex.

(* every derived-complex constructor, accepted or rejected: no attribute dictionary that existed before
   the call is written (owners are handed out from the world's counter, so the dictionaries that
   existed are those whose owner is below it) *)
Theorem C08_constructors_write_no_existing_dictionary :
  forall w c x w' o, ctor_result c = Some x -> exec w c = (w', o) ->
  forall h, fst h < w_uid w -> heap_get (w_heap w') h = heap_get (w_heap w) h.
Proof. exact ctor_heap_frame. Qed.
Print Assumptions C08_constructors_write_no_existing_dictionary.

(* Filtration.copy(): the complex underneath the result owns all its dictionaries under the new
   uid; nothing of another owner is written *)
Theorem C08_filtration_copy_writes_only_new_cells :
  forall hp f uid orders hp' c x, f_copy hp f uid orders = (hp', c, x) ->
  owned (f_rep c) /\ r_uid (f_rep c) = uid /\ forall h, fst h <> uid -> heap_get hp' h = heap_get hp h.
Proof. exact f_copy_fresh. Qed.
Print Assumptions C08_filtration_copy_writes_only_new_cells.

(* complexes() taken as a whole (one snapshot per index, each bound to its own variable): however
   many it builds and wherever it stops, no dictionary that existed before the call is written *)
Theorem C08_complexes_writes_no_existing_dictionary :
  forall w f pre w' o, exec w (CComplexes f pre) = (w', o) ->
  forall h, fst h < w_uid w -> heap_get (w_heap w') h = heap_get (w_heap w) h.
Proof. exact complexes_heap_frame. Qed.
Print Assumptions C08_complexes_writes_no_existing_dictionary.

(* constructors filling a caller-supplied target -- copy(c) / snap into c, and compose with a
   target: only dictionaries of the target's own owner may be written, so nothing of the source
   or of the operands (which have other owners, C09_different_owners_share_nothing) is *)
Theorem C08_copy_into_target_writes_only_the_targets_cells :
  forall w v x w' o t,
  (exec w (CCopyInto v x) = (w', o) \/ exec w (CSnapInto v x) = (w', o)) ->
  vget (w_vars w) x = Some (OCx t) -> owned t ->
  forall h, fst h <> r_uid t -> heap_get (w_heap w') h = heap_get (w_heap w) h.
Proof. exact copy_into_exec_frame. Qed.
Print Assumptions C08_copy_into_target_writes_only_the_targets_cells.

Theorem C08_compose_into_target_writes_only_the_targets_cells :
  forall w a b d w' o t,
  exec w (CComposeInto a b d) = (w', o) -> vget (w_vars w) d = Some (OCx t) -> owned t ->
  forall h, fst h <> r_uid t -> heap_get (w_heap w') h = heap_get (w_heap w) h.
Proof. exact compose_into_exec_frame. Qed.
Print Assumptions C08_compose_into_target_writes_only_the_targets_cells.
