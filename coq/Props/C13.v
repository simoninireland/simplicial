(* C13 -- a filtration is a monotone sequence of complexes indexed by birth.
   Proved for every filtration history (setIndex to anything in any order, stepping, adds, deletes): the view at
   an index, its monotonicity, the births; exactly the simplices have a birth and a face is born no later than
   its cofaces, so every view is closed under faces; the complex underneath is closed, also when deleteSimplex
   stops half-way; the bookkeeping tables agree, with their readings for indices(), simplicesAddedAtIndex and
   addedAtIndex; whatever snap() returns is closed; a copy is a legal filtration.
   Left to the oracle with its shadow log: complexes() as a whole, addSimplexWithBasis on a filtration. *)
From Coq Require Import String ZArith Bool Arith List.
From SV Require Import Names NamesFacts ListFacts Rep Fresh Complex Atomic RepInv Homology Filtration FiltProofs Shapes SnapProofs FiltClosed.
From SV Require Closed ClosedReach FiltCinv FiltBook FiltCopy.
From Coq Require Sorted.
Import ListNotations.

(* the complex seen at index i consists of exactly the simplices of the filtration whose birth
   index is <= i *)
Theorem C13_view :
  forall f i s, In s (f_simplices (at_index f i) false) <->
  In s (simplices (f_rep f) false) /\ containsSimplex (f_rep f) s = true /\
  exists b, assoc s (f_appears f) = Some b /\ (b <= i)%Z.
Proof. exact view_def. Qed.
Print Assumptions C13_view.

(* setIndex only moves the point of view *)
Theorem C13_setIndex_view : forall f i b, f_simplices (f_setIndex f i) b = f_simplices (at_index f i) b.
Proof. exact simplices_setIndex. Qed.
Print Assumptions C13_setIndex_view.

(* for i <= j the complex at i is a sub-family of the complex at j, for any indices (negative,
   fractional, visited in any order) *)
Theorem C13_monotone :
  forall f i j s, (i <= j)%Z -> In s (f_simplices (at_index f i) false) -> In s (f_simplices (at_index f j) false).
Proof. exact view_monotone. Qed.
Print Assumptions C13_monotone.

(* addedAtIndex: a successful add registers the index current at that moment and leaves every
   other birth index alone *)
Theorem C13_birth :
  forall f fs id attr f' n, pinv (f_rep f) -> finv f -> f_addSimplex f fs id attr = (f', Ok n) ->
  assoc n (f_appears f') = Some (f_index f) /\ f_index f' = f_index f /\
  (forall s, s <> n -> assoc s (f_appears f') = assoc s (f_appears f)) /\ finv f'.
Proof. exact add_registers_birth. Qed.
Print Assumptions C13_birth.

(* every snapshot / every complex yielded by complexes() is a closed complex: shapes and k+1 faces
   per simplex of order k (whatever the outcome of the copy) *)
Theorem C13_snapshot_is_closed :
  forall hp (f : filt) uid hp' c x, copy_new hp (f_view f) uid = (hp', c, x) -> Closed.cinv c.
Proof. intros hp f uid hp' c x. exact (ClosedReach.copy_new_cinv hp (f_view f) uid hp' c x). Qed.
Print Assumptions C13_snapshot_is_closed.

(* EVERY HISTORY of setting the index (to anything, in any order), stepping, adding and deleting:
   the invariant minv = shapes + "exactly the simplices have a birth" + "a face is born no later
   than its cofaces" holds ... *)
Theorem C13_history_invariant : forall uid i0 ops, minv (fold_left fstep ops (new_filt uid i0)).
Proof. exact filtration_history_minv. Qed.
Print Assumptions C13_history_invariant.
(* ... hence the complex seen at any index is closed under faces *)
Theorem C13_view_closed_under_faces :
  forall f i s t, minv f -> f_contains (at_index f i) s = true -> In t (faces (f_rep f) s) ->
  f_contains (at_index f i) t = true.
Proof. exact view_closed_under_faces. Qed.
Print Assumptions C13_view_closed_under_faces.

(* the complex under the filtration is closed (a simplex of order k >= 1 has exactly k+1 faces) at every
   point of every filtration history -- the hypothesis of the C14 snapshot theorems *)
Theorem C13_filtration_histories_are_closed :
  forall uid i0 ops, Closed.cinv (f_rep (fold_left fstep ops (new_filt uid i0))).
Proof. exact FiltCinv.filtration_history_cinv. Qed.
Print Assumptions C13_filtration_histories_are_closed.

(* THE BOOKKEEPING.  After every history of public operations the two tables of the filtration
   (simplex -> birth index, index -> simplices born there) say the same thing (FiltBook.binv) ... *)
Theorem C13_bookkeeping_invariant :
  forall uid i0 ops, FiltBook.binv (fold_left fstep ops (new_filt uid i0)).
Proof. intros uid i0 ops. exact (proj2 (FiltBook.filtration_history_binv uid i0 ops)). Qed.
Print Assumptions C13_bookkeeping_invariant.
(* ... hence indices() is strictly ascending (so duplicate-free), contains the index the filtration
   stands at and every birth index ... *)
Theorem C13_indices_ascending_and_cover_births :
  forall f, FiltBook.binv f ->
  Sorted.StronglySorted Z.lt (f_indices f) /\ In (f_index f) (f_indices f) /\ forall s i, f_addedAtIndex f s = Ok i -> In i (f_indices f).
Proof.
  intros f H. split; [now apply FiltBook.indices_strictly_ascending|].
  split; [now apply FiltBook.current_index_is_an_index|].
  intros s i. now apply FiltBook.every_birth_is_an_index.
Qed.
Print Assumptions C13_indices_ascending_and_cover_births.
(* ... simplicesAddedAtIndex(i) lists exactly the simplices whose addedAtIndex is i ... *)
Theorem C13_simplicesAddedAtIndex_lists_the_births :
  forall f i b l, minv f -> FiltBook.binv f -> f_simplicesAddedAtIndex f i b = Ok l ->
  forall s, In s (map snd l) <-> f_addedAtIndex f s = Ok i.
Proof. exact FiltBook.addedAt_lists_the_births. Qed.
Print Assumptions C13_simplicesAddedAtIndex_lists_the_births.
(* ... and a birth index is the index that was current when the simplex was added: the accepted
   addSimplex records the current index for the new simplex and changes no other; moving the index
   changes none; forceDeleteSimplex forgets only the simplex it removes. *)
Theorem C13_born_at_the_current_index :
  forall f fs id attr f' n, minv f -> FiltBook.binv f -> f_addSimplex f fs id attr = (f', Ok n) ->
  f_addedAtIndex f' n = Ok (f_index f) /\ f_index f' = f_index f /\ forall s, s <> n -> f_addedAtIndex f' s = f_addedAtIndex f s.
Proof. exact FiltBook.add_is_born_at_the_current_index. Qed.
Print Assumptions C13_born_at_the_current_index.
Theorem C13_births_survive_moves_and_other_deletions :
  (forall f i s, f_addedAtIndex (f_setIndex f i) s = f_addedAtIndex f s) /\ (forall f s f' t, minv f -> f_forceDelete f s = (f', Ok tt) -> t <> s ->
                    f_addedAtIndex f' t = f_addedAtIndex f t).
Proof. split; [exact FiltBook.moving_keeps_births|exact FiltBook.forceDelete_keeps_other_births]. Qed.
Print Assumptions C13_births_survive_moves_and_other_deletions.
(* addSimplex never dies of a KeyError in its own tables *)
Theorem C13_addSimplex_tables_never_fail :
  forall f fs id attr f' x, minv f -> FiltBook.binv f -> f_addSimplex f fs id attr = (f', x) ->
  x <> Raise KeyError \/ exists e, x = Raise e /\ f_appears f' = f_appears f.
Proof.
  intros f fs id attr f' x Hm Hb H.
  destruct (FiltBook.addSimplex_binv f fs id attr f' x Hm Hb H) as [[_ K]|[_ K]]; [now left|now right].
Qed.
Print Assumptions C13_addSimplex_tables_never_fail.

(* Filtration.copy(): whatever its outcome, what it returns satisfies both invariants -- a copy is a filtration in
   the sense of every theorem above (monotone views closed under faces, consistent bookkeeping, ascending indices) *)
Theorem C13_a_copy_is_a_legal_filtration :
  forall hp f uid orders hp' c x, f_copy hp f uid orders = (hp', c, x) -> minv c /\ FiltBook.binv c.
Proof. exact FiltCopy.f_copy_invariants. Qed.
Print Assumptions C13_a_copy_is_a_legal_filtration.
