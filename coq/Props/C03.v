(* C03 -- matrix, face/coface, basis and index views describe the same complex.
   For every history and every algorithm of base.py: index view = listing view; the shape of every boundary
   operator and basis matrix (one column per k-simplex, one row per (k-1)-simplex / per point); the entries of
   the boundary operators against faces(); cofaces as the inverse of faces.  After every history of the public
   mutators: the basis of a simplex is the points of its closure.  For every complex that meets the vertex-set
   reading (it is false without it): consecutive boundary operators multiply to zero, boundary() is the mod-2
   sum, the boundary of a boundary is empty.
   BOUNDED: all of it as the boolean viewsb, for every complex on at most 4 labelled points and after every
   deletion and addition by basis applied to it -- instances of the theorems above (SpecViews.v,
   SpecEffects.v): the enumerated complexes have the vertex-set reading (SpecBuild.v). *)
From Coq Require Import String ZArith Bool Arith List.
From SV Require Import Names NamesFacts ListFacts Rep Fresh Complex Atomic RepInv Homology Filtration Gen World Small Sweeps Shapes ShapesReach Incidence Closed ClosedReach Duality BasisInv VInv DD.
From SV Require SpecEffects.
Import ListNotations.

(* indexOf is the simplex's position in the listing of its order, orderOf that order *)
Theorem C03_indexOf_is_listing_position_partial :
  forall r s k i, pinv r ->
  ((orderOf r s = Ok k /\ indexOf r s = Ok i) <-> nth_error (simplicesOfOrder r k) i = Some s).
Proof. exact orderOf_indexOf_position. Qed.
Print Assumptions C03_indexOf_is_listing_position_partial.

(* ... at every point of every history *)
Theorem C03_invariant_at_every_point : forall uid ops, pinv (fold_left rstep ops (empty_rep uid)).
Proof. exact reachable_pinv. Qed.
Print Assumptions C03_invariant_at_every_point.

(* the listing above the maximum order is empty *)
Theorem C03_nothing_above_max : forall r k, pinv r -> r_nord r <= k -> simplicesOfOrder r k = [].
Proof.
  intros r k H Hk. unfold simplicesOfOrder. destruct (k <? r_nord r) eqn:E; auto.
  apply PeanoNat.Nat.ltb_lt in E. exfalso. apply (PeanoNat.Nat.lt_irrefl k). eapply PeanoNat.Nat.lt_le_trans; eauto.
Qed.
Print Assumptions C03_nothing_above_max.

(* BOUNDED: the boolean viewsb -- shapes and entries of every boundary
   operator against faces(), the 1 x n0 zero row for k = 0, the empty matrix above the maximum,
   cofaces the inverse of faces, indexOf the listing position, basis = points of the closure,
   boundary of a boundary empty -- for every complex on at most 4 labelled points, and after every
   single deletion and every addition by basis applied to it *)
Theorem C03_views_agree_upto4_partial : forall c, In c complexes4 ->
  fam_eq (fam (build c)) (closure_of c) && wfb (build c) && viewsb (build c) = true.
Proof. exact SpecEffects.built_complexes_upto4. Qed.
Print Assumptions C03_views_agree_upto4_partial.
Theorem C03_views_agree_after_mutation_upto4_partial : forall c, In c complexes4 ->
  chk_delete (build c) = true /\ chk_addb (build c) = true.
Proof. intros c H. split; [now apply SpecEffects.delete_upto4 | now apply SpecEffects.addb_upto4]. Qed.
Print Assumptions C03_views_agree_after_mutation_upto4_partial.

(* SHAPES, every history: the order-k boundary operator has one column per k-simplex and one row
   per (k-1)-simplex (sinv also says the same of the basis matrices: one row per point) ... *)
Theorem C03_boundary_shape :
  forall r k, sinv r -> k < r_nord r ->
  ncols (boundaryOperator r k) = length (simplicesOfOrder r k) /\
  (1 <= k -> nrows (boundaryOperator r k) = length (simplicesOfOrder r (k - 1))).
Proof. exact boundary_shape. Qed.
Print Assumptions C03_boundary_shape.
(* ... also for k = 0 (the 1 x n0 zero row) and above the maximum order (the empty matrix) *)
Theorem C03_boundary_columns :
  forall r k, sinv r -> ncols (boundaryOperator r k) = length (simplicesOfOrder r k).
Proof. exact boundary_ncols. Qed.
Print Assumptions C03_boundary_columns.
(* ... where sinv holds at every point of every history of the three mutators of the representation *)
Theorem C03_shapes_at_every_point : forall uid ops, sinv (fold_left rstep ops (empty_rep uid)).
Proof. exact reachable_sinv. Qed.
Print Assumptions C03_shapes_at_every_point.
(* ... and is kept by every algorithm of base.py, whether the call succeeds or raises *)
Theorem C03_shapes_kept_by_every_public_mutator :
  (forall r s r' x, sinv r -> deleteSimplex r s = (r', x) -> sinv r') /\
  (forall r bs r' x, sinv r -> deleteSimplexWithBasis r bs = (r', x) -> sinv r') /\
  (forall r ss r' x, sinv r -> deleteSimplices r ss = (r', x) -> sinv r') /\
  (forall r bs r' x, sinv r -> restrictBasisTo r bs = (r', x) -> sinv r') /\
  (forall r bs attr r' x, sinv r -> c_ensureBasis r bs attr = (r', x) -> sinv r') /\
  (forall r bs id attr r' x, sinv r -> c_addSimplexWithBasis r bs id attr = (r', x) -> sinv r') /\
  (forall r s pts r' x, sinv r -> barycentricSubdivide r s pts = (r', x) -> sinv r') /\
  (forall r rn r' st x, sinv r -> relabel r rn = (r', st, x) -> sinv r') /\
  (forall hp r src rn hp' r' st x, sinv r -> addSimplicesFrom hp r src rn = (hp', r', st, x) -> sinv r') /\
  (forall hp src uid hp' r' x, copy_new hp src uid = (hp', r', x) -> sinv r') /\
  (forall hp src target hp' r' x, sinv target -> copy_into hp src target = (hp', r', x) -> sinv r').
Proof.
  exact (conj deleteSimplex_sinv (conj deleteSimplexWithBasis_sinv (conj deleteSimplices_sinv
        (conj restrictBasisTo_sinv (conj ensureBasis_sinv (conj addSimplexWithBasis_sinv
        (conj barycentricSubdivide_sinv (conj relabel_sinv (conj addSimplicesFrom_sinv
        (conj copy_new_sinv copy_into_sinv)))))))))).
Qed.
Print Assumptions C03_shapes_kept_by_every_public_mutator.
(* the invariant is not vacuous: it unfolds to concrete shape statements (see Shapes.v) and the
   boolean viewsb above states the same shapes of every complex on <= 4 points *)

(* ENTRIES, every history: row i / column j of the order-(k+1) boundary operator stand for the i-th
   k-simplex and the j-th (k+1)-simplex of the listings, and the entry is 1 exactly where the row
   simplex is a face of the column simplex *)
Theorem C03_boundary_entries :
  forall r k i j s t, sinv r ->
  nth_error (simplicesOfOrder r (S k)) j = Some s -> nth_error (simplicesOfOrder r k) i = Some t ->
  (mentry (boundaryOperator r (S k)) i j = true <-> In t (faces r s)).
Proof. exact boundary_entries. Qed.
Print Assumptions C03_boundary_entries.
(* cofaces is the exact inverse relation of faces *)
Theorem C03_cofaces_inverse_of_faces :
  forall r, sinv r -> forall s t, In t (faces r s) <-> In s (cofaces r t).
Proof. exact cofaces_inverse_of_faces. Qed.
Print Assumptions C03_cofaces_inverse_of_faces.

(* BASIS = POINTS OF THE CLOSURE, every history of public operations: the invariant bcinv (closedness
   + "a point is its own basis, the basis of a higher simplex is the union of the bases of its
   faces") holds after any sequence of the eleven public mutators ... *)
Theorem C03_public_histories_keep_the_basis_invariant : forall uid ops, bcinv (fold_left pstep ops (empty_rep uid)).
Proof. exact public_history_bcinv. Qed.
Print Assumptions C03_public_histories_keep_the_basis_invariant.
(* ... under which the basis of a simplex of order k is exactly what is reached from it by k face
   steps: the points in its closure *)
Theorem C03_basis_is_the_points_of_the_closure :
  forall r, bcinv r -> forall k t j, assoc t (r_simp r) = Some (k, j) ->
  forall p, In p (basisOf r t) <-> fchain r k t p.
Proof. exact basis_is_closure_points. Qed.
Print Assumptions C03_basis_is_the_points_of_the_closure.

(* CONSEQUENTLY, every complex that meets the vertex-set reading (C01_vertex_set_reading_at_every_point):
   consecutive boundary operators multiply to zero mod 2 -- entry (i, j) of d_{k+1} . d_{k+2}, the mod-2
   sum over the (k+1)-simplices u of d_{k+1}[i,u] * d_{k+2}[u,j], is 0 (a (k+2)-simplex reaches a
   k-simplex through no face or through exactly two: DD.two_ways_down) *)
Theorem C03_consecutive_boundaries_multiply_to_zero :
  forall r, vinv r -> forall k i j,
  i < length (simplicesOfOrder r k) -> j < length (simplicesOfOrder r (S (S k))) ->
  parity (map (fun u => mentry (boundaryOperator r (S k)) i u && mentry (boundaryOperator r (S (S k))) u j)
              (seq 0 (length (simplicesOfOrder r (S k))))) = false.
Proof. exact dd_zero. Qed.
Print Assumptions C03_consecutive_boundaries_multiply_to_zero.
(* boundary() of a chain is the mod-2 sum of its members' faces: no repeats, and w is listed exactly
   when it is a face of an odd number of members *)
Theorem C03_boundary_is_mod2_sum :
  forall r, vinv r -> forall ss b, boundary r ss = Ok b ->
  NoDup b /\ forall w, In w b <-> parity (map (fun s => memn w (faces r s)) ss) = true.
Proof. exact boundary_is_mod2_sum. Qed.
Print Assumptions C03_boundary_is_mod2_sum.
(* and the boundary of a boundary is empty *)
Theorem C03_boundary_of_boundary_is_empty :
  forall r, vinv r -> forall ss b, boundary r ss = Ok b -> boundary r b = Ok nil.
Proof. exact boundary_of_boundary. Qed.
Print Assumptions C03_boundary_of_boundary_is_empty.
