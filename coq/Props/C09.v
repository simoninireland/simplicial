(* C09 -- copies and derived complexes share no mutable state with their sources.
   Proved: copy() / snap() (copy_new), JSON decoding, flagComplex, vietorisRipsComplex, growFlagComplex,
   compose, deepcopy and Filtration.copy give (or keep) a complex all of whose attribute dictionaries are its own,
   allocated under its owner, leaving every cell of another owner untouched; two complexes with different
   owners share no dictionary; every constructor of exec keeps "each bound complex owns its dictionaries".
   Contents of copy(): the source's simplices, faces, listing order, attribute values and vertex-set reading,
   and it never fails on a complex that meets the reading; of Filtration.copy: simplices, faces, births.
   Tested only: attribute contents of Filtration.copy, follow-up mutation scripts. *)
From Coq Require Import String ZArith Bool Arith List.
From SV Require Import Names NamesFacts ListFacts Rep Fresh Complex Atomic RepInv Homology Filtration Gen World WorldProofs Shapes CopyFaithful CopyAttrs.
From SV Require Import VInv CopyOk.

From SV Require Closed Listing VInv VIso CpsGen ComposeFresh.
From SV Require Import DeepcopyFrame FiltCopyFrame CtorFrame WorldOwn.

Theorem C09_copy_is_fresh :
  forall hp src uid hp' r' x, copy_new hp src uid = (hp', r', x) ->
  owned r' /\ r_uid r' = uid /\ forall h, fst h <> uid -> heap_get hp' h = heap_get hp h.
Proof. exact copy_new_fresh. Qed.
Print Assumptions C09_copy_is_fresh.

Theorem C09_decode_is_fresh :
  forall js hp r hp' r' x, owned r -> decode hp r js = (hp', r', x) ->
  owned r' /\ r_uid r' = r_uid r /\ forall h, fst h <> r_uid r -> heap_get hp' h = heap_get hp h.
Proof. exact decode_owned. Qed.
Print Assumptions C09_decode_is_fresh.

Theorem C09_different_owners_share_nothing :
  forall r1 r2 s1 s2 h, owned r1 -> owned r2 -> r_uid r1 <> r_uid r2 ->
  In (s1, h) (r_attr r1) -> In (s2, h) (r_attr r2) -> False.
Proof. exact owned_disjoint. Qed.
Print Assumptions C09_different_owners_share_nothing.

(* bulk adds (addSimplicesFrom, the engine of copy / snap / compose) keep a complex the owner of
   all its dictionaries and copy the attribute contents into cells of that owner only *)
Theorem C09_bulk_add_keeps_ownership :
  forall rn src hp r st ns hp' r' st' x, owned r -> addFrom_loop hp r rn st src ns = (hp', r', st', x) ->
  owned r' /\ r_uid r' = r_uid r /\ forall h, fst h <> r_uid r -> heap_get hp' h = heap_get hp h.
Proof. exact addFrom_loop_owned. Qed.
Print Assumptions C09_bulk_add_keeps_ownership.

(* copy(): the new complex has exactly the simplices of the source, each with its order and
   exactly its faces (and satisfies the shape invariant) *)
Theorem C09_copy_faithful :
  forall hp src uid hp' r',
  copy_new hp (view_of src) uid = (hp', r', Ok tt) ->
  sinv r' /\
  (forall s, containsSimplex r' s = memn s (simplices src false)) /\
  (forall s, In s (simplices src false) ->
     orderOf r' s = Ok (length (faces src s) - 1) /\ forall t, In t (faces r' s) <-> In t (faces src s)).
Proof. exact copy_faithful. Qed.
Print Assumptions C09_copy_faithful.

(* ... and every simplex of the copy has an attribute dictionary owned by the copy whose contents
   are those of the source's dictionary; no dictionary of another owner is written (uid: the fresh
   owner id of the copy; 0 is the owner of the never-written empty dictionary) *)
Theorem C09_copy_attribute_values :
  forall hp src uid hp' r',
  (forall s h, assoc s (r_attr src) = Some h -> fst h <> uid) -> uid <> 0 ->
  copy_new hp (view_of src) uid = (hp', r', Ok tt) ->
  (forall s, In s (simplices src false) ->
     exists h', assoc s (r_attr r') = Some h' /\ fst h' = uid /\
       heap_get hp' h' = heap_get hp (match assoc s (r_attr src) with Some h => h | None => (0, 0) end)) /\
  (forall h0, fst h0 <> uid -> heap_get hp' h0 = heap_get hp h0).
Proof. exact copy_attrs. Qed.
Print Assumptions C09_copy_attribute_values.

(* the copy of a closed complex (every complex of every history of public operations: C01) lists, per
   order, exactly what the source lists, in the same sequence -- so indices are the same too *)
Theorem C09_copy_lists_in_the_same_order :
  forall hp src uid hp' c, Closed.cinv src -> copy_new hp (view_of src) uid = (hp', c, Ok tt) ->
  forall j, simplicesOfOrder c j = simplicesOfOrder src j.
Proof. exact Listing.copy_listing_per_order. Qed.
Print Assumptions C09_copy_lists_in_the_same_order.

(* the copy of a complex that meets the vertex-set reading (C01) meets it, and every simplex of the copy
   has the points it has in the source *)
Theorem C09_copy_keeps_the_vertex_set_reading :
  forall hp src uid hp' c, VInv.vinv src -> copy_new hp (view_of src) uid = (hp', c, Ok tt) ->
  VInv.vinv c /\ forall s, containsSimplex c s = true -> VInv.sameset (basisOf c s) (basisOf src s).
Proof. exact VIso.copy_vinv. Qed.
Print Assumptions C09_copy_keeps_the_vertex_set_reading.

(* copy() of a complex that meets the vertex-set reading never fails *)
Theorem C09_copy_never_fails :
  forall src, vinv src -> forall hp uid, exists hp' c, copy_new hp (view_of src) uid = (hp', c, Ok tt).
Proof. exact copy_new_succeeds. Qed.
Print Assumptions C09_copy_never_fails.

(* flagComplex() -- a copy, then the sweep, which adds simplices without attributes -- returns a complex that owns
   every one of its dictionaries and writes no dictionary of anybody else, whatever its outcome; the result of
   vietorisRipsComplex() is flagComplex() of a private complex, so the same holds for it; growFlagComplex keeps a
   complex the owner of its dictionaries.  With C09_different_owners_share_nothing: the result shares no
   dictionary with its source or with any other complex. *)
Theorem C09_flag_complex_is_fresh :
  forall hp src uid hp' r' x, Homology.flagComplex hp src uid = (hp', r', x) ->
  owned r' /\ r_uid r' = uid /\ forall h, fst h <> uid -> heap_get hp' h = heap_get hp h.
Proof. exact CpsGen.flagComplex_fresh. Qed.
Print Assumptions C09_flag_complex_is_fresh.
Theorem C09_vietoris_rips_complex_is_fresh :
  forall hp uid0 u r close vr hp' r' x, vr_build uid0 r close = (vr, Ok tt) ->
  Homology.flagComplex hp vr u = (hp', r', x) ->
  owned r' /\ r_uid r' = u /\ forall h, fst h <> u -> heap_get hp' h = heap_get hp h.
Proof. intros hp uid0 u r close vr hp' r' x _. apply CpsGen.flagComplex_fresh. Qed.
Print Assumptions C09_vietoris_rips_complex_is_fresh.
Theorem C09_grow_keeps_ownership :
  forall r news r' x, owned r -> Homology.growFlagComplex r news = (r', x) -> owned r' /\ r_uid r' = r_uid r.
Proof. exact CpsGen.growFlagComplex_owned. Qed.
Print Assumptions C09_grow_keeps_ownership.

(* compose(): the result -- new, or the caller's target if that owns its dictionaries -- owns every one of its
   dictionaries (merged and handed-over ones are new cells of that owner) and no cell of another owner is written,
   whatever the outcome *)
Theorem C09_compose_is_fresh :
  (forall hp a c uid hp' d x, Homology.compose hp a c None uid = (hp', d, x) ->
     owned d /\ r_uid d = uid /\ forall h, fst h <> uid -> heap_get hp' h = heap_get hp h) /\
  (forall hp a c t uid hp' d x, owned t -> Homology.compose hp a c (Some t) uid = (hp', d, x) ->
     owned d /\ r_uid d = r_uid t /\ forall h, fst h <> r_uid t -> heap_get hp' h = heap_get hp h).
Proof. split; [exact ComposeFresh.compose_fresh|exact ComposeFresh.compose_into_fresh]. Qed.
Print Assumptions C09_compose_is_fresh.

(* Filtration.copy(): when it succeeds, the copy has exactly the simplices of the source, each with its faces and with
   the birth index it has in the source (for every source filtration that satisfies the two filtration invariants --
   every filtration history, C13) *)
From SV Require FiltClosed FiltBook FiltCopyContents.
Theorem C09_filtration_copy_contents :
  forall f uid, FiltClosed.minv f -> FiltBook.binv f -> forall hp orders hp' c,
  f_copy hp f uid orders = (hp', c, Ok tt) ->
  (forall s, containsSimplex (f_rep c) s = containsSimplex (f_rep f) s) /\
  (forall s, containsSimplex (f_rep f) s = true ->
     f_addedAtIndex c s = f_addedAtIndex f s /\ forall t, In t (faces (f_rep c) s) <-> In t (faces (f_rep f) s)).
Proof. exact FiltCopyContents.f_copy_contents. Qed.
Print Assumptions C09_filtration_copy_contents.

(* copy.deepcopy: the result owns every one of its dictionaries under the new uid, so (by
   C09_different_owners_share_nothing) it shares none with its source; nothing older is written *)
Theorem C09_deepcopy_is_fresh :
  forall hp r uid hp' r', deepcopy_rep hp r uid = (hp', r') ->
  owned r' /\ r_uid r' = uid /\ forall h, fst h <> uid -> heap_get hp' h = heap_get hp h.
Proof. exact deepcopy_fresh. Qed.
Print Assumptions C09_deepcopy_is_fresh.

(* Filtration.copy(): likewise, whatever its outcome *)
Theorem C09_filtration_copy_is_fresh :
  forall hp f uid orders hp' c x, f_copy hp f uid orders = (hp', c, x) ->
  owned (f_rep c) /\ r_uid (f_rep c) = uid /\ forall h, fst h <> uid -> heap_get hp' h = heap_get hp h.
Proof. exact f_copy_fresh. Qed.
Print Assumptions C09_filtration_copy_is_fresh.

(* the ownership invariant of worlds -- every complex bound to a variable (or underneath a
   filtration) owns all its dictionaries, under an owner below the world's counter -- is kept by
   creating a complex and by every derived-complex constructor, accepted or rejected: whatever
   constructors produce has an owner of its own and hence (C09_different_owners_share_nothing)
   shares no dictionary with anything else in the world *)
Theorem C09_constructors_keep_world_ownership :
  forall w c x w' o, ctor_result c = Some x -> exec w c = (w', o) -> wown w -> wown w'.
Proof. exact ctor_keeps_wown. Qed.
Print Assumptions C09_constructors_keep_world_ownership.

Theorem C09_new_complex_keeps_world_ownership :
  forall w v w' o, exec w (CNew v) = (w', o) -> wown w -> wown w'.
Proof. exact new_keeps_wown. Qed.
Print Assumptions C09_new_complex_keeps_world_ownership.

Theorem C09_new_filtration_and_queries_keep_world_ownership :
  forall w, wown w ->
  (forall v i w' o, exec w (CNewF v i) = (w', o) -> wown w') /\
  (forall v q w' o, exec w (CQuery v q) = (w', o) -> wown w').
Proof.
  intros w W. split; [intros v i w' o H; exact (newf_keeps_wown _ _ _ _ _ H W)|].
  intros v q w' o H. exact (query_keeps_wown _ _ _ _ _ H W).
Qed.
Print Assumptions C09_new_filtration_and_queries_keep_world_ownership.
