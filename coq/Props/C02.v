(* C02 -- each mutator has exactly its set-theoretic effect and a frame.
   For every complex: the exact effect and frame of addSimplex by faces, of a bulk add without renaming, of
   forceDeleteSimplex and of deleteSimplex (exactly the star goes, every survivor keeps order and faces); the
   attribute frame of additions and deletions (an earlier simplex / a survivor keeps the dictionary it had).
   For every complex that meets the vertex-set reading, in vertex sets: add by basis, delete, delete by basis,
   restrictBasisTo.
   BOUNDED: every complex on at most 4 labelled points (167 complexes, built by basis with library-generated
   names for the inner simplices) and every applicable request, subdivision included: exact family, every
   other simplex keeps name, order, faces and basis, the result is well formed.  For delete, restrict and add
   by basis these are instances of the theorems in vertex sets (SpecEffects.v; add by basis never fails on a
   complex with the reading, AwbTotal.v), the enumerated complexes having the vertex-set reading because each
   add by basis that builds them succeeds (evaluated, SpecBuild.v); of a subdivision the kernel evaluates what
   no theorem gives (SweepsProved.v).
   Left to the oracle: subdivision beyond 4 points; which simplex of the closure receives the attributes
   given to addSimplexWithBasis.  A bulk add under a renaming is C15's. *)
From Coq Require Import String ZArith Bool Arith List.
From SV Require Import Names NamesFacts Rep Complex Homology Filtration Gen World Small Sweeps RepInv Shapes AddEffect CopyFaithful DelEffect Duality DeleteEffect VInv AwbSpec VReach VSets Restrict Lookup.
From SV Require ClosedReach AttrInv AttrFrame SweepsProved SpecEffects.

(* building by basis gives exactly the non-empty subsets of the given simplices, a well-formed
   complex whose views agree *)
Theorem C02_add_by_basis_builds_upto4_partial : forall c, In c complexes4 ->
  fam_eq (fam (build c)) (closure_of c) && wfb (build c) && viewsb (build c) = true.
Proof. exact SpecEffects.built_complexes_upto4. Qed.
Print Assumptions C02_add_by_basis_builds_upto4_partial.

(* deleting s removes exactly the simplices whose vertex set contains that of s; every other
   simplex keeps its name, order, faces and basis; the result is well formed *)
Theorem C02_delete_upto4_partial : forall c, In c complexes4 -> chk_delete (build c) = true.
Proof. exact SpecEffects.delete_upto4. Qed.
Print Assumptions C02_delete_upto4_partial.

(* restricting to any set of points keeps exactly the simplices all of whose vertices lie in it *)
Theorem C02_restrict_upto4_partial : forall c, In c complexes4 -> chk_restrict (build c) = true.
Proof. exact SpecEffects.restrict_upto4. Qed.
Print Assumptions C02_restrict_upto4_partial.

(* adding by basis any absent vertex set (over the points and one new point) adds exactly its
   missing non-empty subsets, names the top simplex as requested, keeps everything else *)
Theorem C02_add_by_basis_upto4_partial : forall c, In c complexes4 -> chk_addb (build c) = true.
Proof. exact SpecEffects.addb_upto4. Qed.
Print Assumptions C02_add_by_basis_upto4_partial.

(* subdividing removes the star and joins one fresh point to every proper face *)
Theorem C02_subdivide_upto4_partial : forall c, In c complexes4 -> chk_subdiv (build c) = true.
Proof. exact SweepsProved.subdiv_upto4. Qed.
Print Assumptions C02_subdivide_upto4_partial.

(* EVERY HISTORY: adding by faces adds exactly one simplex -- under a name that was not there, of
   order |fs|-1, with exactly the faces fs -- and every simplex that was there keeps its order, its
   position, its faces and its basis *)
Theorem C02_add_by_faces_exact_effect :
  forall r fs id attr r' n, sinv r -> addSimplex r fs id attr = (r', Ok n) ->
  containsSimplex r n = false /\ NoDup fs /\
  orderOf r' n = Ok (length fs - 1) /\ (forall t, In t (faces r' n) <-> In t fs) /\
  (forall s, containsSimplex r s = true ->
     orderOf r' s = orderOf r s /\ indexOf r' s = indexOf r s /\ faces r' s = faces r s /\ basisOf r' s = basisOf r s) /\
  (forall s, containsSimplex r' s = containsSimplex r s || name_eqb s n).
Proof. exact addSimplex_effect. Qed.
Print Assumptions C02_add_by_faces_exact_effect.

(* bulk add without a renaming: every simplex of the source view arrives under its name with its
   order and faces, the target's own simplices are untouched, membership = old + source *)
Theorem C02_bulk_add_faithful :
  forall (src : srcview) hp r st ns hp' r' st' ns',
  sinv r -> addFrom_loop hp r RNone st src ns = (hp', r', st', Ok ns') ->
  sinv r' /\
  (forall s fs h, In (s, (fs, h)) src ->
     containsSimplex r' s = true /\ orderOf r' s = Ok (length fs - 1) /\ (forall t, In t (faces r' s) <-> In t fs)) /\
  (forall s, containsSimplex r s = true ->
     containsSimplex r' s = true /\ orderOf r' s = orderOf r s /\ indexOf r' s = indexOf r s /\
     faces r' s = faces r s /\ basisOf r' s = basisOf r s) /\
  (forall s, containsSimplex r' s = containsSimplex r s || memn s (map fst src)).
Proof. exact bulk_add_faithful. Qed.
Print Assumptions C02_bulk_add_faithful.

(* removing one simplex (forceDeleteSimplex, the step deleteSimplex is made of): it goes, nothing
   new appears, every other simplex stays with its order, and faces / cofaces of the others lose
   exactly the removed simplex *)
Theorem C02_remove_one_exact_effect :
  forall r s k i, sinv r -> assoc s (r_simp r) = Some (k, i) ->
  let r' := fst (forceDeleteSimplex r s) in
  containsSimplex r' s = false /\
  (forall t, containsSimplex r' t = true -> containsSimplex r t = true /\ t <> s) /\
  (forall t kt it, t <> s -> assoc t (r_simp r) = Some (kt, it) ->
     orderOf r' t = Ok kt /\
     (forall u, In u (faces r' t) <-> In u (faces r t) /\ u <> s) /\
     (forall u, In u (cofaces r' t) <-> In u (cofaces r t) /\ u <> s)).
Proof.
  intros r s k i Hinv As r'. split; [exact (d_gone r s k i Hinv As)|]. split; [exact (d_sub r s k i Hinv As)|].
  intros t kt it Hne At. destruct (d_pos r s k i Hinv As t kt it Hne At) as (_ & At' & _).
  split; [unfold orderOf; fold r' in At'; now rewrite At'|]. split.
  - exact (proj1 (d_faces r s k i Hinv As t kt it Hne At)).
  - apply (d_cofaces r s k i Hinv As t Hne). unfold containsSimplex. now rewrite At.
Qed.
Print Assumptions C02_remove_one_exact_effect.

(* EVERY HISTORY: deleteSimplex(s) of a simplex of the complex never fails, removes exactly the star
   of s -- s and whatever is reached from s by coface steps -- and every surviving simplex keeps
   its order and exactly its faces *)
Theorem C02_delete_exact_effect :
  forall r s r' x, sinv r -> containsSimplex r s = true -> deleteSimplex r s = (r', x) ->
  x = Ok tt /\ sinv r' /\
  (forall t, containsSimplex r' t = true <-> containsSimplex r t = true /\ ~ exists j, cchain r j s t) /\
  (forall t, containsSimplex r' t = true ->
     orderOf r' t = orderOf r t /\ forall u, In u (faces r' t) <-> In u (faces r t)).
Proof. exact deleteSimplex_effect. Qed.
Print Assumptions C02_delete_exact_effect.

(* ADD BY BASIS, EVERY COMPLEX THAT MEETS THE VERTEX-SET READING (C01_vertex_set_reading_at_every_point)
   AND EVERY DUPLICATE-FREE BASIS OF AT LEAST TWO NAMES: when the request is accepted, the simplex on
   exactly bs is in the complex under the returned name; every simplex that was there keeps its order,
   faces and basis; every simplex that is new lies inside bs and has a point set no earlier simplex
   had -- i.e. exactly the missing subsets of bs can have been added; and the reading still holds *)
Theorem C02_add_by_basis_effect :
  forall r bs id attr r' n, vinv r -> NoDup bs -> 2 <= length bs ->
  c_addSimplexWithBasis r bs id attr = (r', Ok n) ->
  vinv r' /\ containsSimplex r' n = true /\ (forall p, In p (basisOf r' n) <-> In p bs) /\
  (forall t, containsSimplex r t = true ->
     containsSimplex r' t = true /\ orderOf r' t = orderOf r t /\ faces r' t = faces r t /\ basisOf r' t = basisOf r t) /\
  (forall t, containsSimplex r' t = true -> containsSimplex r t = false ->
     incl (basisOf r' t) bs /\ forall u, containsSimplex r u = true -> ~ (forall p, In p (basisOf r u) <-> In p (basisOf r' t))).
Proof. exact add_by_basis_effect. Qed.
Print Assumptions C02_add_by_basis_effect.

(* THE SAME IN VERTEX SETS: the sets of points that carry a simplex after an accepted add by basis are
   exactly those that did before and the non-empty subsets of bs *)
Theorem C02_add_by_basis_vertex_sets :
  forall r bs id attr r' n, vinv r -> NoDup bs -> 2 <= length bs ->
  c_addSimplexWithBasis r bs id attr = (r', Ok n) ->
  forall B, NoDup B -> B <> nil ->
  ((exists t, containsSimplex r' t = true /\ sameset (basisOf r' t) B) <->
   (exists t, containsSimplex r t = true /\ sameset (basisOf r t) B) \/ incl B bs).
Proof. exact add_by_basis_vertex_sets. Qed.
Print Assumptions C02_add_by_basis_vertex_sets.

(* deleteSimplex(s): never fails on a simplex of the complex; exactly the simplices whose points
   include all of s's go, the others keep their points; the reading survives *)
Theorem C02_delete_vertex_sets :
  forall r s r' x, vinv r -> containsSimplex r s = true -> deleteSimplex r s = (r', x) ->
  x = Ok tt /\ vinv r' /\
  (forall t, containsSimplex r' t = true <-> containsSimplex r t = true /\ ~ incl (basisOf r s) (basisOf r t)) /\
  (forall t, containsSimplex r' t = true -> sameset (basisOf r' t) (basisOf r t)).
Proof. exact deleteSimplex_vertex_sets. Qed.
Print Assumptions C02_delete_vertex_sets.

(* deleteSimplexWithBasis(bs) for points bs of the complex: succeeds when some simplex is on exactly
   bs, and then removes exactly the simplices whose points include bs *)
Theorem C02_delete_by_basis_vertex_sets :
  forall r bs r' x, vinv r -> pts r bs -> NoDup bs -> bs <> nil ->
  deleteSimplexWithBasis r bs = (r', x) ->
  (x = Ok tt -> vinv r' /\
     (forall t, containsSimplex r' t = true <-> containsSimplex r t = true /\ ~ incl bs (basisOf r t)) /\
     (forall t, containsSimplex r' t = true -> sameset (basisOf r' t) (basisOf r t))) /\
  ((exists s, containsSimplex r s = true /\ sameset (basisOf r s) bs) -> x = Ok tt).
Proof. exact delete_by_basis_vertex_sets. Qed.
Print Assumptions C02_delete_by_basis_vertex_sets.

(* restrictBasisTo(bs): never fails (nor runs out of the model's fuel) when bs are points of the
   complex; afterwards exactly the simplices all of whose points lie in bs are there, with the points
   they had *)
Theorem C02_restrict_vertex_sets :
  forall r bs r' x, vinv r -> restrictBasisTo r bs = (r', x) ->
  (pts r bs -> x = Ok tt) /\
  (x = Ok tt -> vinv r' /\
    (forall t, containsSimplex r' t = true <-> containsSimplex r t = true /\ incl (basisOf r t) bs) /\
    (forall t, containsSimplex r' t = true -> sameset (basisOf r' t) (basisOf r t))).
Proof. exact restrict_vertex_sets. Qed.
Print Assumptions C02_restrict_vertex_sets.

(* THE ATTRIBUTE FRAME.  AttrInv.ainv (every simplex has exactly one attribute dictionary, nothing else has one)
   holds after every history of public operations (C15_attribute_table_invariant).  None of the operations below
   takes the heap of dictionaries, so no content can change; which dictionary -- which object -- belongs to which
   simplex is the table r_attr: *)
(* an accepted addSimplex leaves every simplex that was there with the dictionary it had, and the new simplex has
   the dictionary it was given, or one of the complex's own when none was given *)
Theorem C02_add_attaches_the_given_attributes_and_keeps_the_others :
  forall r fs id attr r' n, AttrInv.ainv r -> addSimplex r fs id attr = (r', Ok n) ->
  (forall t, containsSimplex r t = true -> containsSimplex r' t = true /\ assoc t (r_attr r') = assoc t (r_attr r)) /\
  exists h, assoc n (r_attr r') = Some h /\ (attr = Some h \/ (attr = None /\ fst h = r_uid r)).
Proof. exact AttrFrame.addSimplex_attr. Qed.
Print Assumptions C02_add_attaches_the_given_attributes_and_keeps_the_others.
(* adding by basis, ensuring a basis and adding in bulk -- whatever their outcome -- leave every simplex that was
   there in the complex, with the dictionary it had *)
Theorem C02_additions_keep_the_attributes_of_what_was_there :
  (forall r bs id attr r' x, AttrInv.ainv r -> c_addSimplexWithBasis r bs id attr = (r', x) -> AttrFrame.keeps_old r r') /\
  (forall r bs attr r' x, AttrInv.ainv r -> c_ensureBasis r bs attr = (r', x) -> AttrFrame.keeps_old r r') /\
  (forall r hp src rn hp' r' st x, AttrInv.ainv r -> addSimplicesFrom hp r src rn = (hp', r', st, x) -> AttrFrame.keeps_old r r').
Proof.
  split; [exact AttrFrame.addSimplexWithBasis_keeps_old|].
  split; [exact AttrFrame.ensureBasis_keeps_old|exact AttrFrame.addSimplicesFrom_keeps_old].
Qed.
Print Assumptions C02_additions_keep_the_attributes_of_what_was_there.
(* every deletion -- one simplex with its star, by basis, several, restriction to a basis -- whatever its outcome,
   leaves every survivor a simplex of the original complex with the dictionary it had there *)
Theorem C02_deletions_keep_the_attributes_of_the_survivors :
  (forall r s r' x, AttrInv.ainv r -> deleteSimplex r s = (r', x) -> AttrFrame.survivors_keep r r') /\
  (forall r bs r' x, AttrInv.ainv r -> deleteSimplexWithBasis r bs = (r', x) -> AttrFrame.survivors_keep r r') /\
  (forall r ss r' x, AttrInv.ainv r -> deleteSimplices r ss = (r', x) -> AttrFrame.survivors_keep r r') /\
  (forall r bs r' x, AttrInv.ainv r -> restrictBasisTo r bs = (r', x) -> AttrFrame.survivors_keep r r').
Proof.
  split; [exact AttrFrame.deleteSimplex_attr|]. split; [exact AttrFrame.deleteSimplexWithBasis_attr|].
  split; [exact AttrFrame.deleteSimplices_attr|exact AttrFrame.restrictBasisTo_attr].
Qed.
Print Assumptions C02_deletions_keep_the_attributes_of_the_survivors.
