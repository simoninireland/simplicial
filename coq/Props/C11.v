(* C11 -- flagComplex is the clique complex of the 1-skeleton; growing = rebuilding.
   For every complex: the flag complex contains the source with its names, orders and faces and adds only
   simplices of order >= 2.  For every complex that meets the vertex-set reading: flagComplex ends normally,
   the result meets the reading, a set of two or more points carries a simplex exactly when every two of them
   are joined by an edge of the source, and taking the flag complex again adds nothing; growFlagComplex,
   however it ends, adds simplices on cliques only, and when the edges just added have no cofaces and the rest
   is flag-complete it yields the family flagComplex builds from scratch.
   BOUNDED: every complex on at most 4 labelled points (not only graphs): the family of the flag complex is
   exactly the clique family, it contains the source with its names, it is well formed, and taking the flag
   complex again adds nothing -- an instance of the statement above (SweepsProved.v), the enumerated complexes
   having the vertex-set reading (SpecBuild.v).
   Left to the oracle (samefam): that a "flag complex, add edges, grow" sequence meets the two hypotheses;
   the attributes of the source in the flag complex. *)
From Coq Require Import String ZArith Bool Arith List.
From SV Require Import Names Rep Complex Homology Filtration Gen World Small Sweeps RepInv Shapes FlagExt VInv DD MinCycle FlagSound FlagComplete CopyOk VRProofs FlagFinal GrowComplete.
From SV Require SweepsProved.

Import ListNotations.

Theorem C11_flag_is_clique_complex_upto4_partial : forall c, In c complexes4 -> chk_flag (build c) = true.
Proof. exact SweepsProved.flag_upto4. Qed.
Print Assumptions C11_flag_is_clique_complex_upto4_partial.

(* EVERY COMPLEX: the flag complex of K has exactly K's points and edges (whatever else it contains
   has order >= 2) and contains K with K's names, orders and faces *)
Theorem C11_flag_contains_source_and_adds_only_higher_simplices :
  forall hp src uid hp' r', flagComplex hp src uid = (hp', r', Ok tt) ->
  sinv r' /\
  (forall s, In s (simplices src false) ->
     containsSimplex r' s = true /\ orderOf r' s = Ok (length (faces src s) - 1) /\
     forall t, In t (faces r' s) <-> In t (faces src s)) /\
  (forall s, containsSimplex r' s = true ->
     In s (simplices src false) \/ exists k, orderOf r' s = Ok k /\ 2 <= k).
Proof. exact flagComplex_contains_source. Qed.
Print Assumptions C11_flag_contains_source_and_adds_only_higher_simplices.
(* growFlagComplex likewise only adds simplices of order >= 2 and touches nothing that was there *)
Theorem C11_grow_adds_only_higher_simplices :
  forall r news r' x, sinv r -> growFlagComplex r news = (r', x) -> ext2 r r'.
Proof. exact growFlagComplex_ext. Qed.
Print Assumptions C11_grow_adds_only_higher_simplices.

(* EVERY COMPLEX THAT MEETS THE VERTEX-SET READING (every in-contract history, C01) ------------------- *)
(* the minimal-cycle lemma behind `_isClosed`: k+3 distinct simplices of order k+1 such that every
   simplex is a face of an even number of them are the facets of one set B of k+3 points *)
Theorem C11_closed_combination_is_a_set_of_facets :
  forall r, vinv r -> forall k fs, NoDup fs -> length fs = S (S (S k)) ->
  (forall f, In f fs -> exists j, assoc f (r_simp r) = Some (S k, j)) ->
  (forall w, parity (map (fun f => memn w (faces r f)) fs) = false) ->
  exists B, NoDup B /\ length B = S (S (S k)) /\
     (forall f, In f fs -> incl (basisOf r f) B) /\
     (forall p, In p B -> exists f, In f fs /\ In p (basisOf r f)).
Proof. exact min_cycle. Qed.
Print Assumptions C11_closed_combination_is_a_set_of_facets.

(* soundness of flagComplex: the result meets the vertex-set reading again (k+1 points per simplex
   of order k, no two simplices on one point set, closed under subsets) and every simplex of it sits
   on points that are pairwise joined by an edge OF THE SOURCE *)
Theorem C11_flag_simplices_sit_on_cliques :
  forall hp src uid hp' r', vinv src -> flagComplex hp src uid = (hp', r', Ok tt) ->
  vinv r' /\
  (forall t p q, containsSimplex r' t = true -> In p (basisOf r' t) -> In q (basisOf r' t) -> p <> q ->
     edge_of src p q).
Proof. exact flagComplex_sound. Qed.
Print Assumptions C11_flag_simplices_sit_on_cliques.

(* the same for growFlagComplex, whatever it is given and however it ends *)
Theorem C11_grow_simplices_sit_on_cliques :
  forall r news r' x, vinv r -> growFlagComplex r news = (r', x) ->
  vinv r' /\
  (forall t p q, containsSimplex r' t = true -> In p (basisOf r' t) -> In q (basisOf r' t) -> p <> q ->
     edge_of r p q).
Proof. exact growFlagComplex_sound. Qed.
Print Assumptions C11_grow_simplices_sit_on_cliques.

(* THE STATEMENT OF C11, for every complex that meets the vertex-set reading: flagComplex ends normally,
   its result meets the reading again, and a set B of two or more points carries a simplex of the result
   EXACTLY WHEN every two points of B are joined by an edge of the source.
   (Found while proving this: the loop bound `maxk = k` of `_completePotentialSimplices` could be lowered by a
   fill at a low order, so that higher orders were never visited -- repaired in /repo, fix 31adc94; the proof
   needs the invariant "no simplex above maxk".) *)
Theorem C11_flag_complex_is_the_clique_complex :
  forall hp src uid, vinv src ->
  exists hp1 r', flagComplex hp src uid = (hp1, r', Ok tt) /\ vinv r' /\
    forall B, NoDup B -> 2 <= length B -> (carried r' B <-> clique src B).
Proof. exact flag_complex_is_clique_complex. Qed.
Print Assumptions C11_flag_complex_is_the_clique_complex.

(* "whenever all facets of a possible simplex are present the simplex is too" *)
Theorem C11_facets_present_simplex_present :
  forall hp src uid, vinv src ->
  exists hp1 r', flagComplex hp src uid = (hp1, r', Ok tt) /\
    forall B, NoDup B -> 3 <= length B -> (forall x, In x B -> carried r' (drop x B)) -> carried r' B.
Proof. exact flag_complex_fills_facets. Qed.
Print Assumptions C11_facets_present_simplex_present.

(* "taking the flag complex again adds nothing" *)
Theorem C11_flag_complex_idempotent :
  forall hp src uid hp1 r1 hp' uid', vinv src -> flagComplex hp src uid = (hp1, r1, Ok tt) ->
  exists hp2 r2, flagComplex hp' r1 uid' = (hp2, r2, Ok tt) /\
    forall B, NoDup B -> 2 <= length B -> (carried r2 B <-> carried r1 B).
Proof. exact flag_complex_idempotent. Qed.
Print Assumptions C11_flag_complex_idempotent.

(* "Adding edges to a flag complex and calling growFlagComplex with them yields the same family as building the
   flag complex of the enlarged graph from scratch."  Stated for any list `news` of simplices of r such that
   (1) whatever simplex of r has the points of one of them among its points is itself one of them -- new edges just
   added have no cofaces yet -- and (2) r is flag-complete apart from them: every clique of r's edges that does not
   contain the points of a new simplex carries a simplex (r was a flag complex before the edges were added).
   Then growFlagComplex ends normally, keeps the vertex-set reading and every old simplex, and a set of two or more
   points carries a simplex exactly when it is a clique of r's edges ... *)
Theorem C11_grow_completes_the_flag_complex :
  forall r news, vinv r -> news <> [] ->
  (forall s, In s news -> containsSimplex r s = true) ->
  let TB := map (basisOf r) news in
  (forall t, containsSimplex r t = true -> taintb TB (basisOf r t) = true -> In t news) ->
  (forall B, NoDup B -> 2 <= length B -> clique r B -> taintb TB B = false -> carried r B) ->
  exists r', growFlagComplex r news = (r', Ok tt) /\ vinv r' /\ ext2b r r' /\
    forall B, NoDup B -> 2 <= length B -> (carried r' B <-> clique r B).
Proof. exact growFlagComplex_complete. Qed.
Print Assumptions C11_grow_completes_the_flag_complex.
(* ... which is the family flagComplex builds from scratch *)
Theorem C11_grow_equals_rebuild :
  forall hp uid r news, vinv r -> news <> [] ->
  (forall s, In s news -> containsSimplex r s = true) ->
  let TB := map (basisOf r) news in
  (forall t, containsSimplex r t = true -> taintb TB (basisOf r t) = true -> In t news) ->
  (forall B, NoDup B -> 2 <= length B -> clique r B -> taintb TB B = false -> carried r B) ->
  forall hp1 c, copy_new hp (view_of r) uid = (hp1, c, Ok tt) ->
  exists r' rF, growFlagComplex r news = (r', Ok tt) /\ flagComplex hp r uid = (hp1, rF, Ok tt) /\
    forall B, NoDup B -> 2 <= length B -> (carried r' B <-> carried rF B).
Proof. exact grow_equals_rebuild. Qed.
Print Assumptions C11_grow_equals_rebuild.
