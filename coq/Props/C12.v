(* C12 -- the Vietoris-Rips complex has a simplex exactly on the mutually close point sets.
   The model separates the two halves of vietorisRipsComplex: (1) which pairs are close -- the
   binary64 test distance(p, q) <= eps -- and (2) the complex built from the close pairs.
   For every finite set of points and every list of close pairs: (2) ends normally, meets the vertex-set
   reading, has exactly the embedding's points, a set of two or more points carries a simplex exactly when
   every two of them are a close pair, and fewer close pairs give a smaller family; (1) is monotone in eps on
   all doubles (FloatMono.v).
   BOUNDED: (2) for every closeness relation on at most 4 points (all 2^6 of them and fewer points), including
   the empty relation (just the points) and the full one (the full simplex) -- a kernel sweep, Sweeps.v --,
   and inclusion of families for every pair of nested relations on 4 points -- the monotonicity above, the
   kernel only running each construction to see that it ends normally (SweepsProved.v); (1) on exactly
   representable examples (Floats.v).  For arbitrary doubles which pairs are close is tied to the code by the
   correspondence and the oracle (tested_only). *)
From Coq Require Import String ZArith Bool Arith List PrimFloat.
From SV Require Import Names Rep Homology World Sweeps Floats VInv FlagSound FlagComplete VRProofs CopyOk FlagFinal.
From SV Require FloatMono SweepsProved.
Import ListNotations.

Theorem C12_family_upto4_partial :
  forallb (fun n => forallb (chk_vr n) (sublists (all_pairs n))) (seq 0 5) = true.
Proof. exact sweep_vr4. Qed.
Print Assumptions C12_family_upto4_partial.

Theorem C12_monotone_upto4_partial :
  forallb (fun c1 => forallb (chk_vr_monotone 4 c1) (sublists (all_pairs 4))) (sublists (all_pairs 4)) = true.
Proof. exact SweepsProved.sweep_vr_monotone4. Qed.
Print Assumptions C12_monotone_upto4_partial.

(* the closeness test in binary64: Euclidean distance, ties at exactly eps included, a negative
   radius excludes even coincident points *)
Theorem C12_closeness_examples :
  distance [0; 0]%float [3; 4]%float = 5%float /\ close 5 [0; 0]%float [3; 4]%float = true /\
  close (-1) [0; 0]%float [0; 0]%float = false /\ distance [2]%float [-1]%float = 3%float.
Proof. split; [exact distance_345|]. split; [exact close_tie|]. split; [exact close_negative | exact distance_1d]. Qed.
Print Assumptions C12_closeness_examples.

(* EVERY FINITE SET OF POINTS, EVERY SET OF CLOSE PAIRS ------------------------------------------------
   The model runs vietorisRipsComplex as the code does: a private complex with the embedding's points
   (same names) and one edge per close pair (i < j in the listing of points), then its flag complex.
   `close` is the list of pairs for which the code's `distance(...) <= eps` held; the binary64 test
   itself is Floats.close, tied to the code bit for bit on every run (floatcorr).  For every such
   list: the result meets the vertex-set reading, has exactly the embedding's points, and a set B of
   two or more points carries a simplex EXACTLY WHEN every two points of B are a close pair (vr_fam). *)
Theorem C12_family :
  forall hp uid u r close vr,
  NoDup (simplicesOfOrder r 0) ->
  (forall ij, In ij close -> fst ij < snd ij /\ snd ij < length (simplicesOfOrder r 0)) ->
  vr_build uid r close = (vr, Ok tt) ->
  exists hp1 r', flagComplex hp vr u = (hp1, r', Ok tt) /\ vinv r' /\
    (forall p, carried r' [p] <-> In p (simplicesOfOrder r 0)) /\
    vr_fam (simplicesOfOrder r 0) close r'.
Proof. exact vr_complex_family. Qed.
Print Assumptions C12_family.

(* eps1 <= eps2 gives fewer close pairs: the family at eps1 is contained in the family at eps2 *)
Theorem C12_monotone :
  forall ss close1 close2 r1 r2, incl close1 close2 -> vr_fam ss close1 r1 -> vr_fam ss close2 r2 ->
  forall B, NoDup B -> 2 <= length B -> carried r1 B -> carried r2 B.
Proof. exact vr_monotone. Qed.
Print Assumptions C12_monotone.

(* no close pair (a negative radius): just the points *)
Theorem C12_no_close_pair_just_the_points :
  forall ss r', vr_fam ss [] r' -> forall B, NoDup B -> 2 <= length B -> ~ carried r' B.
Proof. exact vr_no_pairs. Qed.
Print Assumptions C12_no_close_pair_just_the_points.

(* every pair close (a radius at least the diameter): the full simplex on all points *)
Theorem C12_all_pairs_close_full_simplex :
  forall ss close r', NoDup ss -> (forall i j, i < j -> j < length ss -> In (i, j) close) -> vr_fam ss close r' ->
  forall B, NoDup B -> 2 <= length B -> incl B ss -> carried r' B.
Proof. exact vr_all_pairs. Qed.
Print Assumptions C12_all_pairs_close_full_simplex.

(* ON DOUBLES: the closeness test distance(p, q) <= eps is monotone in eps -- a pair close at eps1 is close at every
   eps2 with eps1 <= eps2 -- so the list of close pairs handed to the construction grows with eps, and with
   C12_monotone so does the complex.  Uses the standard library's specification of the primitive comparison
   (FloatAxioms.leb_spec, an axiom of the standard library: leb is SFleb on the decoded numbers); transitivity of SFleb
   is proved by cases. *)
Theorem C12_closeness_is_monotone_in_eps :
  forall eps1 eps2 (pairs : list (list float * list float)), PrimFloat.leb eps1 eps2 = true ->
  incl (filter (fun pq => close eps1 (fst pq) (snd pq)) pairs) (filter (fun pq => close eps2 (fst pq) (snd pq)) pairs).
Proof. exact FloatMono.close_pairs_monotone. Qed.
Print Assumptions C12_closeness_is_monotone_in_eps.
