(* C10 -- comparison operators (Cmp.v): <= characterised on the listings, the other five defined from it,
   attributes never matter; reflexive, transitive, antisymmetric up to == on reachable complexes; a copy equals
   its source, deleting a simplex makes strictly smaller, == forces equal sets of simplices. *)
From Coq Require Import String ZArith Bool Arith List.
From SV Require Import Names NamesFacts ListFacts Rep Fresh Complex Atomic RepInv Cmp Shapes CopyFaithful Closed ClosedReach Smaller EqSets.
Import ListNotations.

(* a <= b exactly when every simplex listed in a occurs in b with the same order and with its
   faces among its faces in b (for well-formed complexes both have k+1 faces, hence the same set) *)
Theorem C10_le_iff : forall a c, c_le a c = true <-> le_spec a c.
Proof. exact le_iff. Qed.
Print Assumptions C10_le_iff.

Theorem C10_operators_defined_from_le :
  forall a c, c_lt a c = c_le a c && (numberOfSimplices a <? numberOfSimplices c) /\
              c_eq a c = c_le a c && (numberOfSimplices a =? numberOfSimplices c) /\
              c_ge a c = c_le c a /\ c_gt a c = c_lt c a /\ c_ne a c = negb (c_eq a c).
Proof. intros; repeat split. Qed.
Print Assumptions C10_operators_defined_from_le.

Theorem C10_attributes_never_matter :
  forall a c x y, c_le (with_attr a x) (with_attr c y) = c_le a c /\ c_eq (with_attr a x) (with_attr c y) = c_eq a c /\
                  c_lt (with_attr a x) (with_attr c y) = c_lt a c.
Proof. exact attr_blind. Qed.
Print Assumptions C10_attributes_never_matter.

(* <= is reflexive, transitive and antisymmetric up to == on every reachable complex *)
Theorem C10_refl : forall a, pinv a -> c_le a a = true /\ c_eq a a = true.
Proof. intros a H. split; [now apply le_refl | now apply eq_refl']. Qed.
Print Assumptions C10_refl.
Theorem C10_trans : forall a b c, pinv b -> c_le a b = true -> c_le b c = true -> c_le a c = true.
Proof. exact le_trans. Qed.
Print Assumptions C10_trans.
Theorem C10_antisym : forall a b, pinv a -> pinv b -> c_le a b = true -> c_le b a = true -> c_eq a b = true.
Proof. exact le_antisym. Qed.
Print Assumptions C10_antisym.

(* non-vacuity / the defect repaired in /repo: two distinct lone points are not equal *)
Example C10_lone_points :
  let a := fst (addSimplex (empty_rep 1) [] (Some (NInt 1)) None) in
  let b := fst (addSimplex (empty_rep 2) [] (Some (NInt 2)) None) in
  c_eq a b = false /\ c_le a b = false /\ c_eq a a = true.
Proof. vm_compute. repeat split. Qed.

(* every copy equals its source (for a source whose simplices of order k list k+1 faces, none for
   points -- C01's well-formedness) *)
Theorem C10_copy_equals_source :
  forall hp a uid hp' c, pinv a -> face_counts a ->
  copy_new hp (view_of a) uid = (hp', c, Ok tt) -> c_eq a c = true.
Proof. exact copy_equals_source. Qed.
Print Assumptions C10_copy_equals_source.

(* ... in particular every copy of a complex built by public operations equals it *)
Theorem C10_copy_equals_source_public :
  forall hp a uid hp' c, cinv a -> copy_new hp (view_of a) uid = (hp', c, Ok tt) -> c_eq a c = true.
Proof. exact copy_equals_source_public. Qed.
Print Assumptions C10_copy_equals_source_public.
(* deleting any simplex of a complex makes it strictly smaller than it was *)
Theorem C10_delete_makes_strictly_smaller :
  forall r s r' x, sinv r -> containsSimplex r s = true -> deleteSimplex r s = (r', x) -> c_lt r' r = true.
Proof. exact deleteSimplex_strictly_smaller. Qed.
Print Assumptions C10_delete_makes_strictly_smaller.

(* a == b forces the same set of simplices; so complexes that differ in any simplex -- a
   highest-order one, a lone point -- are never equal (and != holds) *)
Theorem C10_equal_complexes_have_the_same_simplices :
  forall a b, pinv a -> pinv b -> c_eq a b = true -> forall s, containsSimplex a s = containsSimplex b s.
Proof. exact eq_same_simplices. Qed.
Print Assumptions C10_equal_complexes_have_the_same_simplices.
Theorem C10_differ_in_a_simplex_never_equal :
  forall a b s, pinv a -> pinv b -> containsSimplex a s <> containsSimplex b s -> c_eq a b = false /\ c_ne a b = true.
Proof. exact differ_in_a_simplex_never_equal. Qed.
Print Assumptions C10_differ_in_a_simplex_never_equal.
