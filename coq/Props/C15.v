(* C15 -- relabelling changes names and nothing else.
   Proved: one accepted rename carries every listing pointwise and leaves the boundary / basis matrices, hence
   order, position, faces, cofaces and basis (read from them), alone; the user's function is called at most
   once per simplex; a whole relabel() -- completed, rejected by the pre-check, or stopped at a rejected single
   rename -- renames every listing by one function and leaves matrices, Betti numbers and Euler characteristic
   alone; a completed one renames by the user's renaming, returns exactly the changed names, and hands each
   attribute dictionary to the new name; a bulk add under a renaming inserts a copy of the source along it,
   attribute values included; a completed relabelDisjointFrom leaves no name shared and renames only collisions.
   The sequential algorithm rejects forward chains: refuted by a witness (known finding). *)
From Coq Require Import String ZArith Bool Arith List.
From SV Require Import Names NamesFacts ListFacts Rep Complex Atomic RepInv RelabelProofs Homology RelabelAll RelabelPhi.
From SV Require ClosedReach AttrInv BulkRenamed Shapes DisjointRen CopyAttrs BulkRenamedAttrs.
Import ListNotations.

Theorem C15_one_rename_carries_structure_partial :
  forall r s q r', pinv r -> relabelSimplex r s q = (r', Ok tt) ->
  r_bnd r' = r_bnd r /\ r_bas r' = r_bas r /\ r_nord r' = r_nord r /\
  (forall k, idxk r' k = map (ren1 s q) (idxk r k)) /\
  (forall h, assoc s (r_attr r) = Some h -> assoc s (r_attr r) = Some h -> In (q, h) (r_attr r')).
Proof. exact relabelSimplex_carries. Qed.
Print Assumptions C15_one_rename_carries_structure_partial.

(* names read off an unchanged matrix column against a renamed listing are the renamed names *)
Theorem C15_names_follow_listing :
  forall (f : name -> name) names col, names_of_col (map f names) col = map f (names_of_col names col).
Proof. exact names_of_col_map. Qed.
Print Assumptions C15_names_follow_listing.

Theorem C15_called_once : forall r rn r' st x, relabel r rn = (r', st, x) -> NoDup (rl_calls st).
Proof. exact relabel_called_once. Qed.
Print Assumptions C15_called_once.

Theorem C15_forward_chain_refuted :
  snd (relabel two_points (RMap [(NStr "a", NStr "b"); (NStr "b", NStr "c")])) = Raise ValueError /\
  snd (relabel two_points (RMap [(NStr "b", NStr "c"); (NStr "a", NStr "x")])) =
    Ok [(NStr "a", NStr "x"); (NStr "b", NStr "c")].
Proof. exact forward_chain_refuted. Qed.
Print Assumptions C15_forward_chain_refuted.

(* a whole relabel() -- completed, rejected by the pre-check, or stopped at a rejected single rename
   -- leaves the matrices and the number of orders untouched and renames every listing pointwise
   by one function phi ... *)
Theorem C15_relabel_changes_names_only :
  forall r rn r' st x, pinv r -> relabel r rn = (r', st, x) -> exists phi, renamed_by phi r r'.
Proof. exact relabel_renames. Qed.
Print Assumptions C15_relabel_changes_names_only.
(* ... along which order, listing position, faces, cofaces and basis of every simplex are carried *)
Theorem C15_structure_carried :
  forall phi r r', pinv r -> pinv r' -> renamed_by phi r r' ->
  forall s k i, assoc s (r_simp r) = Some (k, i) ->
  assoc (phi s) (r_simp r') = Some (k, i) /\
  faces r' (phi s) = map phi (faces r s) /\ cofaces r' (phi s) = map phi (cofaces r s) /\
  basisOf r' (phi s) = map phi (basisOf r s).
Proof. exact renamed_structure. Qed.
Print Assumptions C15_structure_carried.
(* ... and boundary operators, Smith normal forms, Betti numbers, Euler characteristic and the
   per-order counts are unchanged *)
Theorem C15_betti_unchanged :
  forall phi r r', renamed_by phi r r' ->
  (forall k, boundaryOperator r' k = boundaryOperator r k) /\
  (forall k, smithNormalForm r' k = smithNormalForm r k) /\
  (forall ks, bettiNumbers r' ks = bettiNumbers r ks) /\
  eulerCharacteristic r' = eulerCharacteristic r /\
  numberOfSimplicesOfOrder r' = numberOfSimplicesOfOrder r.
Proof. exact renamed_homology. Qed.
Print Assumptions C15_betti_unchanged.

(* a COMPLETED relabel() renames by the user's renaming and reports it: every listing is renamed pointwise by
   phi = "the name the renaming gave this simplex (remembered from its one call), itself otherwise", matrices
   and the number of orders are untouched, the returned mapping lists -- in listing order -- exactly the
   simplices whose name changed, and for a dict renaming m the remembered name of s is m.get(s, s) *)
Theorem C15_relabel_renames_by_the_users_renaming :
  forall r rn r' st mapping, pinv r -> rn <> RNone -> relabel r rn = (r', st, Ok mapping) ->
  renamed_by (memo_of st) r r' /\
  mapping = changed st (simplices r false) /\
  (forall s, In s (simplices r false) -> exists t, assoc s (rl_memo st) = Some t).
Proof. exact relabel_phi. Qed.
Print Assumptions C15_relabel_renames_by_the_users_renaming.
Theorem C15_dict_renaming_is_get_with_default :
  forall r m r' st mapping, pinv r -> relabel r (RMap m) = (r', st, Ok mapping) ->
  forall s, In s (simplices r false) -> memo_of st s = um m s.
Proof. exact relabel_phi_dict. Qed.
Print Assumptions C15_dict_renaming_is_get_with_default.

(* ATTRIBUTES.  After every history of public operations every simplex has exactly one attribute
   dictionary and nothing else has one (AttrInv.ainv) ... *)
Theorem C15_attribute_table_invariant :
  forall uid ops, AttrInv.ainv (fold_left ClosedReach.pstep ops (empty_rep uid)).
Proof. exact AttrInv.public_history_ainv. Qed.
Print Assumptions C15_attribute_table_invariant.
(* ... and a completed relabel() hands the dictionary of s -- the same object, relabel never touches the
   heap of dictionaries -- to phi(s), phi being the renaming of C15_relabel_renames_by_the_users_renaming;
   the invariant is kept, so nothing else acquires a dictionary *)
Theorem C15_attributes_follow_the_names :
  forall r rn r' st mapping, AttrInv.ainv r -> rn <> RNone -> relabel r rn = (r', st, Ok mapping) ->
  AttrInv.ainv r' /\
  forall s, containsSimplex r s = true -> assoc (memo_of st s) (r_attr r') = assoc s (r_attr r).
Proof. exact AttrInv.relabel_attrs_follow. Qed.
Print Assumptions C15_attributes_follow_the_names.

(* BULK ADD UNDER A RENAMING (a dict or a function, asked once per simplex and remembered): an accepted
   addSimplicesFrom inserts a copy of the source along phi = "the name the renaming gave s, s itself if it was never
   asked" (the final memo): every source simplex s arrives as phi(s) with its order and with faces phi(faces of s); the
   receiver's own simplices keep name, order, position, faces and points; membership is old + phi(source); the list
   returned is phi of the source's listing.  (Ownership of the new dictionaries: C09_bulk_add_keeps_ownership.) *)
Theorem C15_bulk_add_under_a_renaming :
  forall rn, rn <> RNone -> forall (src : srcview) hp r st ns hp' r' st' ns',
  Shapes.sinv r -> addFrom_loop hp r rn st src ns = (hp', r', st', Ok ns') ->
  let phi := memo_of st' in
  Shapes.sinv r' /\ BulkRenamed.grows st st' /\
  (forall s fs h, In (s, (fs, h)) src ->
     containsSimplex r' (phi s) = true /\ orderOf r' (phi s) = Ok (length fs - 1) /\
     (forall t, In t (faces r' (phi s)) <-> In t (map phi fs))) /\
  (forall s, containsSimplex r s = true ->
     containsSimplex r' s = true /\ orderOf r' s = orderOf r s /\ indexOf r' s = indexOf r s /\
     faces r' s = faces r s /\ basisOf r' s = basisOf r s) /\
  (forall s, containsSimplex r' s = containsSimplex r s || memn s (map phi (map fst src))) /\
  ns' = ns ++ map phi (map fst src).
Proof. exact BulkRenamed.bulk_add_renamed. Qed.
Print Assumptions C15_bulk_add_under_a_renaming.

(* relabelDisjointFrom(c): a completed call leaves no name shared with c, renames only simplices whose names c also
   uses (to names c does not use), and keeps every other simplex under its name.  (On the pinned tree this was false: the
   new name was only checked against the receiver, so a name of c that looks like a decorated name -- 'a->0d1' -- stayed
   shared; found while proving this theorem, fixed in /repo, DESIGN 6.) *)
Theorem C15_relabelDisjointFrom_leaves_no_shared_name :
  forall r c r' st mapping, pinv r -> pinv c -> relabelDisjointFrom r c = (r', st, Ok mapping) ->
  (forall s, containsSimplex r' s = true -> containsSimplex c s = false) /\
  (forall s t, In (s, t) mapping -> containsSimplex r s = true /\ containsSimplex c s = true /\ containsSimplex c t = false) /\
  (forall s, containsSimplex r s = true -> containsSimplex c s = false -> containsSimplex r' s = true).
Proof. exact DisjointRen.relabelDisjointFrom_spec. Qed.
Print Assumptions C15_relabelDisjointFrom_leaves_no_shared_name.

(* ... and it preserves the attributes: every source simplex s arrives as phi(s) with a dictionary of the receiver's own
   (a new cell) that holds what the source's dictionary holds; the receiver's earlier dictionaries keep their contents; no
   dictionary of another owner is written.  (CopyAttrs.ainv uid r: the receiver owns its dictionaries, allocated in
   increasing order -- every complex whose dictionaries the library allocated.) *)
Theorem C15_bulk_add_under_a_renaming_preserves_attributes :
  forall rn uid, rn <> RNone -> forall (src : srcview) hp r st ns hp' r' st' ns',
  CopyAttrs.ainv uid r -> (forall s fs h, In (s, (fs, h)) src -> fst h <> uid) ->
  addFrom_loop hp r rn st src ns = (hp', r', st', Ok ns') ->
  let phi := memo_of st' in
  CopyAttrs.ainv uid r' /\
  (forall s fs h, In (s, (fs, h)) src ->
     exists h', assoc (phi s) (r_attr r') = Some h' /\ fst h' = uid /\ heap_get hp' h' = heap_get hp h) /\
  (forall s h', assoc s (r_attr r) = Some h' -> assoc s (r_attr r') = Some h' /\ heap_get hp' h' = heap_get hp h') /\
  (forall h0, fst h0 <> uid -> heap_get hp' h0 = heap_get hp h0).
Proof. exact BulkRenamedAttrs.bulk_add_renamed_attrs. Qed.
Print Assumptions C15_bulk_add_under_a_renaming_preserves_attributes.
