(* C19 -- Euler characteristic and Euler integral.
   Proved: the Euler characteristic is the alternating sum of the per-order counts (definition of
   the model, checked against the code by the correspondence), equals the alternating sum of the Betti numbers
   for every complex of every history (telescoping of GF(2) ranks, EulerP.v), and is the sum of the signs of
   the simplices.  For every complex that meets the vertex-set reading whose metrics read as numbers,
   non-negative on the points: integrate() is the level-set sum and the simplex-wise sum (EulerInt.v; they
   rest on the effect of restrictBasisTo, C02); it is additive over disjoint unions and over the composition
   of complexes that share no name. *)
From Coq Require Import ZArith List.
From mathcomp Require Import ssreflect ssrfun ssrbool eqtype ssrnat seq choice fintype finfun bigop finset fingroup perm ssralg zmodp matrix mxalgebra.
From SV Require Import Names Rep Complex Homology ListMat SnfCount Rank Betti EulerP RepInv Shapes ShapesReach.
From SV Require EulerAdd EulerCompose.

From SV Require VInv Gen EulerInt.

Theorem C19_chi_def : forall r, eulerCharacteristic r = alt_sum (Zpos xH) (numberOfSimplicesOfOrder r).
Proof. reflexivity. Qed.
Print Assumptions C19_chi_def.

Theorem C19_euler_poincare :
  forall r, alt_sumZ (Zpos xH) (List.map (betti1 r) (List.seq 0 (r_nord r))) =
            alt_sumZ (Zpos xH) (List.map (fun k => Z.of_nat (ncols (boundaryOperator r k))) (List.seq 0 (r_nord r))).
Proof. exact euler_poincare. Qed.
Print Assumptions C19_euler_poincare.

Theorem C19_chi_betti_partial :
  forall r, (forall k, (k < r_nord r)%coq_nat -> ncols (boundaryOperator r k) = length (simplicesOfOrder r k)) ->
  eulerCharacteristic r = alt_sumZ (Zpos xH) (List.map (betti1 r) (List.seq 0 (r_nord r))).
Proof. exact euler_characteristic_is_alt_betti. Qed.
Print Assumptions C19_chi_betti_partial.

(* the hypothesis of the previous theorem holds of every complex of every history (shape
   invariant, C03), so there the Euler characteristic IS the alternating sum of the Betti numbers *)
Theorem C19_chi_is_alternating_betti_sum :
  forall r, sinv r -> eulerCharacteristic r = alt_sumZ (Zpos xH) (List.map (betti1 r) (List.seq 0 (r_nord r))).
Proof. exact euler_is_alternating_betti_sum. Qed.
Print Assumptions C19_chi_is_alternating_betti_sum.
Theorem C19_chi_is_alternating_betti_sum_every_history :
  forall uid ops, let r := List.fold_left rstep ops (empty_rep uid) in
  eulerCharacteristic r = alt_sumZ (Zpos xH) (List.map (betti1 r) (List.seq 0 (r_nord r))).
Proof. exact reachable_euler. Qed.
Print Assumptions C19_chi_is_alternating_betti_sum_every_history.

(* THE EULER INTEGRAL, every complex that meets the vertex-set reading (C01), every heap of attribute
   dictionaries, attribute name and default: when every simplex's metric reads as a number and the
   points' metrics are non-negative, integrate(c) is the sum over the simplices of (-1)^order times
   the smallest metric among the simplex's points (default where the attribute is missing) ... *)
Theorem C19_integral_is_simplexwise_sum :
  forall hp a d c, VInv.vinv c ->
  (forall s, containsSimplex c s = true -> exists z, Gen.metric hp c a d s = Ok z) ->
  (forall p i, assoc p (r_simp c) = Some (0, i) -> Z.le Z0 (EulerInt.m hp a d c p)) ->
  Gen.integrate hp c a d =
  Ok (EulerInt.zsum (fun t => Z.mul (EulerInt.sgn (EulerInt.ord c t)) (EulerInt.minm hp a d c t)) (simplices c false)).
Proof. exact EulerInt.integrate_is_simplexwise_sum. Qed.
Print Assumptions C19_integral_is_simplexwise_sum.
(* ... equivalently the sum over the levels l = 0, 1, .. (below the largest metric) of the Euler
   characteristic of c restricted to the points whose metric exceeds l *)
Theorem C19_integral_is_levelwise_sum :
  forall hp a d c, VInv.vinv c ->
  (forall s, containsSimplex c s = true -> exists z, Gen.metric hp c a d s = Ok z) ->
  (forall p i, assoc p (r_simp c) = Some (0, i) -> Z.le Z0 (EulerInt.m hp a d c p)) ->
  Gen.integrate hp c a d =
  Ok (EulerInt.zsum (fun l => eulerCharacteristic (fst (Gen.levelSet hp c a d (Z.of_nat l))))
        (List.seq 0 (Z.to_nat (List.fold_right Z.max Z0 (List.map (Gen.metric0 hp c a d) (simplices c false)))))).
Proof. exact EulerInt.integrate_is_levelwise_sum. Qed.
Print Assumptions C19_integral_is_levelwise_sum.
(* ... and over isolated points it is the sum of their values *)
Theorem C19_integral_over_isolated_points :
  forall hp a d c, VInv.vinv c ->
  (forall s, containsSimplex c s = true -> exists z, Gen.metric hp c a d s = Ok z) ->
  (forall p i, assoc p (r_simp c) = Some (0, i) -> Z.le Z0 (EulerInt.m hp a d c p)) ->
  le (r_nord c) 1 -> Gen.integrate hp c a d = Ok (EulerInt.zsum (EulerInt.m hp a d c) (simplices c false)).
Proof. exact EulerInt.integrate_isolated_points. Qed.
Print Assumptions C19_integral_over_isolated_points.
(* the Euler characteristic is the sum over the simplices of (-1)^order *)
Theorem C19_chi_is_sum_of_signs :
  forall r, pinv r -> eulerCharacteristic r = EulerInt.zsum (fun t => EulerInt.sgn (EulerInt.ord r t)) (simplices r false).
Proof. exact EulerInt.euler_as_sum. Qed.
Print Assumptions C19_chi_is_sum_of_signs.

(* ADDITIVE OVER DISJOINT UNIONS: when the simplices of u are those of x and of y (each once), and every simplex
   has in u the order and the smallest point metric it has in its part, the integral of u is the sum of the two *)
Theorem C19_integral_is_additive_over_disjoint_unions :
  forall hp a d u x y, VInv.vinv u -> VInv.vinv x -> VInv.vinv y ->
  (forall s, containsSimplex u s = true -> exists z, Gen.metric hp u a d s = Ok z) ->
  (forall s, containsSimplex x s = true -> exists z, Gen.metric hp x a d s = Ok z) ->
  (forall s, containsSimplex y s = true -> exists z, Gen.metric hp y a d s = Ok z) ->
  (forall p i, assoc p (r_simp u) = Some (0, i) -> Z.le Z0 (EulerInt.m hp a d u p)) ->
  (forall p i, assoc p (r_simp x) = Some (0, i) -> Z.le Z0 (EulerInt.m hp a d x p)) ->
  (forall p i, assoc p (r_simp y) = Some (0, i) -> Z.le Z0 (EulerInt.m hp a d y p)) ->
  Permutation.Permutation (simplices u false) (simplices x false ++ simplices y false) ->
  (forall s, In s (simplices x false) -> EulerInt.ord u s = EulerInt.ord x s /\ EulerInt.minm hp a d u s = EulerInt.minm hp a d x s) ->
  (forall s, In s (simplices y false) -> EulerInt.ord u s = EulerInt.ord y s /\ EulerInt.minm hp a d u s = EulerInt.minm hp a d y s) ->
  exists zx zy, Gen.integrate hp x a d = Ok zx /\ Gen.integrate hp y a d = Ok zy /\ Gen.integrate hp u a d = Ok (Z.add zx zy).
Proof. exact EulerAdd.integrate_additive. Qed.
Print Assumptions C19_integral_is_additive_over_disjoint_unions.

(* ... AND ON THE CODE'S OWN UNION: for complexes a and c that share no name (with non-negative integer metrics), when
   a.compose(c) succeeds -- it does for operands that share no points either, C16_compatible_operands_are_composed --
   the integral of the result is the sum of the integrals of a and c.  (The operands' dictionaries belong to other
   owners than the new complex: every two distinct complexes, C09.) *)
Theorem C19_integral_of_a_composition_of_disjoint_complexes :
  forall a c uid hp hp' d at_ dflt, VInv.vinv a -> VInv.vinv c ->
  (forall s h, assoc s (r_attr a) = Some h -> fst h <> uid) ->
  (forall s h, assoc s (r_attr c) = Some h -> fst h <> uid) -> uid <> 0 ->
  (forall s, containsSimplex a s = true -> containsSimplex c s = false) ->
  (forall s, containsSimplex a s = true -> exists z, Gen.metric hp a at_ dflt s = Ok z) ->
  (forall s, containsSimplex c s = true -> exists z, Gen.metric hp c at_ dflt s = Ok z) ->
  (forall p i, assoc p (r_simp a) = Some (0, i) -> Z.le Z0 (EulerInt.m hp at_ dflt a p)) ->
  (forall p i, assoc p (r_simp c) = Some (0, i) -> Z.le Z0 (EulerInt.m hp at_ dflt c p)) ->
  compose hp a c None uid = (hp', d, Ok tt) ->
  exists za zc, Gen.integrate hp a at_ dflt = Ok za /\ Gen.integrate hp c at_ dflt = Ok zc /\
                Gen.integrate hp' d at_ dflt = Ok (Z.add za zc).
Proof. exact EulerCompose.integrate_compose_disjoint. Qed.
Print Assumptions C19_integral_of_a_composition_of_disjoint_complexes.
