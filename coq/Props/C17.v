(* C17 -- JSON encoding round-trips, at the level of the encoded structure (list of
   {id, faces, attributes} in listing order); the text layer is Python's json module (exercised by
   the correspondence, not modelled).
   For every complex: decoding the encoding gives exactly the source's names with their orders and faces, and
   dictionaries of the decoded complex's own holding the source's contents; the decoder ends normally on the
   encoding of every complex that meets the vertex-set reading.
   BOUNDED: every complex on at most 4 labelled points, with names tied to vertex sets and with
   library-generated names: decoding the encoding gives the same names in the same listing
   order, the same orders and faces, and a well-formed complex. *)
From Coq Require Import String ZArith Bool Arith List.
From SV Require Import Names NamesFacts Rep Complex Homology Filtration Gen World Small Sweeps Shapes JsonProofs.
From SV Require Import VInv JsonOk.


Theorem C17_roundtrip_upto4_partial : forall c, In c complexes4 ->
  chk_json (build_named 1 c) && chk_json (build c) = true.
Proof. exact json_upto4. Qed.
Print Assumptions C17_roundtrip_upto4_partial.

(* the encoding lists the simplices in listing order, hence every simplex after all of its faces *)
Theorem C17_listing_order : forall hp v, map j_id (encode_view hp v) = map fst v.
Proof. intros hp v. unfold encode_view. rewrite map_map. reflexivity. Qed.
Print Assumptions C17_listing_order.

(* EVERY COMPLEX (structure level): decoding the encoding of a complex, when the decoder accepts
   it, yields a complex with exactly the source's names, each with its order (|faces| - 1), exactly
   its faces, and an attribute dictionary of its own holding the source dictionary's contents *)
Theorem C17_roundtrip :
  forall hp0 src hp uid hp' r', uid <> 0 ->
  decode hp (empty_rep uid) (encode_view hp0 (view_of src)) = (hp', r', Ok tt) ->
  sinv r' /\
  (forall s, containsSimplex r' s = memn s (simplices src false)) /\
  (forall s, In s (simplices src false) ->
     orderOf r' s = Ok (length (faces src s) - 1) /\ (forall t, In t (faces r' s) <-> In t (faces src s)) /\
     exists h', assoc s (r_attr r') = Some h' /\ fst h' = uid /\
       heap_get hp' h' = heap_get hp0 (match assoc s (r_attr src) with Some h => h | None => (0, 0) end)).
Proof. exact json_roundtrip. Qed.
Print Assumptions C17_roundtrip.

(* the decoder accepts the encoding of every complex that meets the vertex-set reading (at the level of
   the encoded records: it replays the adds of copy(), which never fail) *)
Theorem C17_decoder_accepts_every_encoding :
  forall src hp0 hp uid, vinv src ->
  exists hp' r', decode hp (empty_rep uid) (encode_view hp0 (view_of src)) = (hp', r', Ok tt).
Proof. exact json_decode_succeeds. Qed.
Print Assumptions C17_decoder_accepts_every_encoding.
