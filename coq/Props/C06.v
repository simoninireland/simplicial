(* C06 -- Betti numbers are the mod-2 homology ranks of the stored complex.
   Proved for every representation: the reduction computes the rank over GF(2) (Mathematical Components' \rank)
   of any 0/1 matrix, betti_k = (n_k - rank d_k) - rank d_(k+1), Euler-Poincare; for every complex of every
   public history b_0 is the number of connected components of the graph of points and edges; the Betti numbers
   depend only on the family of vertex sets: not on names, order of insertion, copying or JSON encoding.
   Examples: 2-sphere, torus, projective plane.  That d_k is the incidence matrix is C03's. *)
From Coq Require Import ZArith List.
From mathcomp Require Import all_ssreflect all_algebra.
From SV Require Import Names Rep Complex Homology ListMat SnfCount Rank Betti EulerP Gen RepInv Shapes Incidence Closed Components Betti0 RelabelAll.
From SV Require VInv SameFamily RankPerm SameBetti World JsonBetti.
Import ListNotations.

(* the elimination of _reduceBoundaries, on every 0/1 matrix of every shape, ends in the partial
   identity whose size is the GF(2) rank (Mathematical Components' \rank over 'F_2) of its input *)
Theorem C06_reduce_rank :
  forall (rb cb : nat) (L : Type) (M : bmat) (cls : list (list L)), wfm rb cb M ->
  let D := fst (reduceB rb cb M cls) in
  let r := \rank (mxf rb cb (entry M)) in
  wfm rb cb D /\ forall i j, (i < rb)%coq_nat -> (j < cb)%coq_nat -> entry D i j = (i == j) && (i < r)%N.
Proof. exact reduce_rank. Qed.
Print Assumptions C06_reduce_rank.

(* bettiNumbers()[k] = (n_k - rank d_k) - rank d_(k+1) = dim ker d_k - rank d_(k+1), for every
   representation and every order k (n_k = number of columns of the order-k boundary operator) *)
Theorem C06_betti :
  forall (r : rep) (k : nat),
  betti1 r k = Z.sub (Z.sub (Z.of_nat (ncols (boundaryOperator r k))) (Z.of_nat (rk (boundaryOperator r k))))
                     (Z.of_nat (rk (boundaryOperator r (S k)))).
Proof. exact betti_formula. Qed.
Print Assumptions C06_betti.

(* orders above the maximum report 0 *)
Theorem C06_above_max : forall (r : rep) (k : nat), (r_nord r <= k)%coq_nat -> (0 < k)%coq_nat -> betti1 r k = Z0.
Proof. exact betti_above_max. Qed.
Print Assumptions C06_above_max.

(* the alternating sum over all orders equals the alternating sum of the numbers of k-simplices
   (columns of d_k), i.e. the Euler characteristic *)
Theorem C06_euler_poincare :
  forall r, alt_sumZ (Zpos xH) (List.map (betti1 r) (List.seq 0 (r_nord r))) =
            alt_sumZ (Zpos xH) (List.map (fun k => Z.of_nat (ncols (boundaryOperator r k))) (List.seq 0 (r_nord r))).
Proof. exact euler_poincare. Qed.
Print Assumptions C06_euler_poincare.

(* non-vacuity / field check by computation in the kernel: the model's Betti numbers of the
   2-sphere, the 7-vertex torus and the 6-vertex projective plane (1,1,1 over GF(2), not 1,0,0) *)
Definition build (faces : list (list nat)) : rep :=
  fst (fold_left (fun acc bs => c_addSimplexWithBasis (fst acc) (List.map (fun n => NInt (Z.of_nat n)) bs) None None)
                 faces (empty_rep 1, Ok (NInt Z0))).
Definition bettis (r : rep) : list Z := List.map (fun k => betti1 r k) (List.seq 0 (r_nord r)).
Example C06_sphere : bettis (build [[0;1;2];[0;1;3];[0;2;3];[1;2;3]]) = List.map Z.of_nat [1; 0; 1].
Proof. vm_compute. reflexivity. Qed.
Example C06_torus :
  bettis (build [[0;1;3];[1;2;4];[2;3;5];[3;4;6];[0;4;5];[1;5;6];[0;2;6];[0;1;5];[1;2;6];[0;2;3];[1;3;4];[2;4;5];[3;5;6];[0;4;6]])
  = List.map Z.of_nat [1; 2; 1].
Proof. vm_compute. reflexivity. Qed.
Example C06_projective_plane :
  bettis (build [[0;1;2];[0;2;3];[0;3;4];[0;4;5];[0;1;5];[1;2;4];[2;3;5];[1;3;4];[2;4;5];[1;3;5]]) = List.map Z.of_nat [1; 1; 1].
Proof. vm_compute. reflexivity. Qed.

(* THE 0TH BETTI NUMBER IS THE NUMBER OF CONNECTED COMPONENTS: for every complex built by public
   operations (cinv) that has edges, bettiNumbers()[0] is the number of connected components --
   as counted by Mathematical Components' n_comp -- of the graph on the points in which two points
   are adjacent when they are the two ends of an edge (adjB of the order-1 boundary operator B1) *)
Theorem C06_betti0_is_the_number_of_components :
  forall r, cinv r -> (1 < r_nord r)%coq_nat -> betti1 r 0 = Z.of_nat (n_comp (adjB (B1 r)) predT).
Proof. exact betti0_components. Qed.
Print Assumptions C06_betti0_is_the_number_of_components.
(* ... adjacency spelled out on the boundary operator: distinct points that are both faces of one edge *)
Theorem C06_adjacency_is_sharing_an_edge :
  forall r (a b : 'I_(nrows (boundaryOperator r 1))),
  reflect (exists j : 'I_(ncols (boundaryOperator r 1)),
             [/\ a != b, mentry (boundaryOperator r 1) a j & mentry (boundaryOperator r 1) b j])
          (adjB (B1 r) a b).
Proof. exact adjB_B1. Qed.
Print Assumptions C06_adjacency_is_sharing_an_edge.
(* ... and without edges every point is a component of its own *)
Theorem C06_betti0_without_edges :
  forall r, sinv r -> (r_nord r <= 1)%coq_nat -> betti1 r 0 = Z.of_nat (length (simplicesOfOrder r 0)).
Proof. exact betti0_no_edges. Qed.
Print Assumptions C06_betti0_without_edges.
(* the linear algebra behind it: a matrix over GF(2) with exactly two ones in every column has
   rank = #rows - #connected components *)
Theorem C06_rank_of_an_incidence_matrix :
  forall n m (B : 'M['F_2]_(n, m)),
  (forall j, exists a b : 'I_n, a != b /\ forall i, B i j = GRing.natmul (GRing.one _) ((i == a) || (i == b))) ->
  (\rank B + n_comp (adjB B) predT = n)%N.
Proof. exact rank_graph. Qed.
Print Assumptions C06_rank_of_an_incidence_matrix.
(* the Betti numbers do not depend on the names: a renaming leaves them unchanged *)
Theorem C06_independent_of_names :
  forall phi r r', renamed_by phi r r' -> forall ks, bettiNumbers r' ks = bettiNumbers r ks.
Proof. intros phi r r' H. exact (proj1 (proj2 (proj2 (renamed_homology phi r r' H)))). Qed.
Print Assumptions C06_independent_of_names.

(* "THE RESULT DEPENDS ONLY ON THE FAMILY OF VERTEX SETS": two complexes that meet the vertex-set reading (every
   in-contract history, copies, snapshots, flag and Vietoris-Rips results) and carry simplices on the same sets of
   points -- whatever the simplex names, the order of insertion, the deletions on the way -- have the same Betti
   numbers: equally many simplices per order, and boundary operators that differ by a re-indexing of rows and
   columns, under which Mathematical Components' \rank over 'F_2 is invariant *)
Theorem C06_depends_only_on_the_family_of_vertex_sets :
  forall r1 r2 k, VInv.vinv r1 -> VInv.vinv r2 -> SameFamily.same_family r1 r2 -> betti1 r1 k = betti1 r2 k.
Proof. exact SameBetti.same_betti. Qed.
Print Assumptions C06_depends_only_on_the_family_of_vertex_sets.
Theorem C06_a_copy_has_the_betti_numbers_of_its_source :
  forall hp src uid hp' c k, VInv.vinv src -> copy_new hp (view_of src) uid = (hp', c, Ok tt) -> betti1 c k = betti1 src k.
Proof. exact SameBetti.copy_same_betti. Qed.
Print Assumptions C06_a_copy_has_the_betti_numbers_of_its_source.
Theorem C06_the_decoded_encoding_has_the_betti_numbers_of_the_complex :
  forall src hp0 hp uid hp' r' k, VInv.vinv src ->
  World.decode hp (empty_rep uid) (World.encode_view hp0 (view_of src)) = (hp', r', Ok tt) -> betti1 r' k = betti1 src k.
Proof. exact JsonBetti.json_same_betti. Qed.
Print Assumptions C06_the_decoded_encoding_has_the_betti_numbers_of_the_complex.
Theorem C06_rank_invariant_under_reindexing :
  forall m n (f g : nat -> nat -> bool) (sg tau : nat -> nat),
  (forall i, (i < m)%N -> (sg i < m)%N) -> (forall i i', (i < m)%N -> (i' < m)%N -> sg i = sg i' -> i = i') ->
  (forall j, (j < n)%N -> (tau j < n)%N) -> (forall j j', (j < n)%N -> (j' < n)%N -> tau j = tau j' -> j = j') ->
  (forall i j, (i < m)%N -> (j < n)%N -> f i j = g (sg i) (tau j)) ->
  \rank (Rank.mxf m n f) = \rank (Rank.mxf m n g).
Proof. exact RankPerm.rank_reindex. Qed.
Print Assumptions C06_rank_invariant_under_reindexing.
