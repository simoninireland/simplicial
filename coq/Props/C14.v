(* C14 -- at index i a filtration answers as the complex at i; stepping.
   The faithful model *violates* the statement for maxOrder, simplicesOfOrder and bettiNumbers (they ignore
   the index): refuted by a witness that replays on /repo (known findings).  Proved for every filtration
   history: the snapshot at the current index answers membership, order, faces, the listings per order and as
   a whole, the Euler characteristic and the counts as the filtration's index-aware queries do, and meets the
   vertex-set reading when the complex underneath does; next / prev and their ends. *)
From Coq Require Import String ZArith Bool Arith List.
From SV Require Import Names ListFacts Rep Complex Atomic RepInv Homology Filtration FiltProofs Shapes SnapProofs.
From SV Require Closed ClosedReach Listing VInv VIso FiltClosed FiltBook FiltCount SnapCounts.
Import ListNotations.

Theorem C14_maxOrder_refuted : maxOrder (f_rep witness) <> maxOrder (snap_rep witness).
Proof. exact maxOrder_ignores_index_refuted. Qed.
Print Assumptions C14_maxOrder_refuted.
Theorem C14_simplicesOfOrder_refuted : simplicesOfOrder (f_rep witness) 1 <> simplicesOfOrder (snap_rep witness) 1.
Proof. exact simplicesOfOrder_ignores_index_refuted. Qed.
Print Assumptions C14_simplicesOfOrder_refuted.
Theorem C14_bettiNumbers_refuted :
  bettiNumbers (f_rep witness) (Some [0]) <> bettiNumbers (snap_rep witness) (Some [0]).
Proof. exact bettiNumbers_ignores_index_refuted. Qed.
Print Assumptions C14_bettiNumbers_refuted.

(* membership at index i is membership among the simplices born at or before i, monotone in i *)
Theorem C14_membership_monotone :
  forall f i j s, (i <= j)%Z -> f_contains (at_index f i) s = true -> f_contains (at_index f j) s = true.
Proof. exact contains_monotone. Qed.
Print Assumptions C14_membership_monotone.

(* setNextIndex / setPreviousIndex move to the adjacent index of the sorted index list and do
   nothing at the ends *)
Theorem C14_next : forall f i, index_in (f_index f) (f_indices f) 0 = Some i ->
  S i < length (f_indices f) -> snd (f_setNext f) = Ok (nth (S i) (f_indices f) 0%Z).
Proof. exact next_moves_to_adjacent. Qed.
Print Assumptions C14_next.
Theorem C14_next_at_end : forall f i, index_in (f_index f) (f_indices f) 0 = Some i ->
  S i = length (f_indices f) -> f_setNext f = (f, Ok (f_index f)).
Proof. exact next_stays_at_the_end. Qed.
Print Assumptions C14_next_at_end.
Theorem C14_prev : forall f i, index_in (f_index f) (f_indices f) 0 = Some (S i) ->
  snd (f_setPrev f) = Ok (nth i (f_indices f) 0%Z).
Proof. exact prev_moves_to_adjacent. Qed.
Print Assumptions C14_prev.
Theorem C14_prev_at_start : forall f, index_in (f_index f) (f_indices f) 0 = Some 0 -> f_setPrev f = (f, Ok (f_index f)).
Proof. exact prev_stays_at_the_start. Qed.
Print Assumptions C14_prev_at_start.

(* the snapshot taken at the current index (snap(): a copy of what is visible) answers membership,
   order and faces as the filtration does at that index *)
Theorem C14_snapshot_membership_and_faces :
  forall hp f uid hp' c, pinv (f_rep f) -> copy_new hp (f_view f) uid = (hp', c, Ok tt) ->
  sinv c /\
  (forall s, containsSimplex c s = f_contains f s) /\
  (forall s, f_contains f s = true ->
     orderOf c s = Ok (length (faces (f_rep f) s) - 1) /\ forall t, In t (faces c s) <-> In t (faces (f_rep f) s)).
Proof. exact snap_answers_as_filtration. Qed.
Print Assumptions C14_snapshot_membership_and_faces.
Theorem C14_snapshot_orders :
  forall hp f uid hp' c, Closed.cinv (f_rep f) -> copy_new hp (f_view f) uid = (hp', c, Ok tt) ->
  forall s, f_contains f s = true -> orderOf c s = orderOf (f_rep f) s.
Proof. exact snap_orders_agree. Qed.
Print Assumptions C14_snapshot_orders.

(* LISTINGS AND EULER CHARACTERISTIC, every filtration whose complex is closed (every filtration history:
   C13_filtration_histories_are_closed): the snapshot taken at the current index lists -- per order, and as a
   whole, in the same sequence -- exactly what the filtration's index-aware simplices() lists, and
   the filtration's eulerCharacteristic() is the snapshot's *)
Theorem C14_snapshot_lists_per_order :
  forall hp f uid hp' c, Closed.cinv (f_rep f) -> copy_new hp (f_view f) uid = (hp', c, Ok tt) ->
  forall j, simplicesOfOrder c j = filter (f_contains f) (simplicesOfOrder (f_rep f) j).
Proof. exact Listing.snap_listing_per_order. Qed.
Print Assumptions C14_snapshot_lists_per_order.
Theorem C14_snapshot_lists_what_the_filtration_lists :
  forall hp f uid hp' c, Closed.cinv (f_rep f) -> copy_new hp (f_view f) uid = (hp', c, Ok tt) ->
  simplices c false = f_simplices f false.
Proof. exact Listing.snap_listing. Qed.
Print Assumptions C14_snapshot_lists_what_the_filtration_lists.
Theorem C14_snapshot_euler_characteristic :
  forall hp f uid hp' c, Closed.cinv (f_rep f) -> copy_new hp (f_view f) uid = (hp', c, Ok tt) ->
  eulerCharacteristic c = f_eulerCharacteristic f.
Proof. exact Listing.snap_euler. Qed.
Print Assumptions C14_snapshot_euler_characteristic.

(* the snapshot of a filtration whose complex meets the vertex-set reading meets it, with the points the
   simplices have in the filtration: closure, star, lookups, Euler integral (C04, C19) apply to it *)
Theorem C14_snapshot_meets_the_vertex_set_reading :
  forall hp f uid hp' c, VInv.vinv (f_rep f) -> copy_new hp (f_view f) uid = (hp', c, Ok tt) ->
  VInv.vinv c /\ forall s, containsSimplex c s = true -> VInv.sameset (basisOf c s) (basisOf (f_rep f) s).
Proof. exact VIso.snap_vinv. Qed.
Print Assumptions C14_snapshot_meets_the_vertex_set_reading.

(* THE TOTAL COUNT.  numberOfSimplices() of a filtration walks indices() and adds up the sizes of the
   per-index tables up to the current index; for every filtration that satisfies the two invariants
   kept by every filtration history (C13_history_invariant, C13_bookkeeping_invariant) that is the
   number of simplices the filtration lists at its index, and what the snapshot counts *)
Theorem C14_numberOfSimplices_counts_the_view :
  forall f, FiltClosed.minv f -> FiltBook.binv f -> f_numberOfSimplices f = length (f_simplices f false).
Proof. exact FiltCount.numberOfSimplices_counts_the_view. Qed.
Print Assumptions C14_numberOfSimplices_counts_the_view.
Theorem C14_snapshot_counts_what_the_filtration_counts :
  forall hp f uid hp' c, FiltClosed.minv f -> FiltBook.binv f -> Closed.cinv (f_rep f) ->
  copy_new hp (f_view f) uid = (hp', c, Ok tt) -> numberOfSimplices c = f_numberOfSimplices f.
Proof. exact FiltCount.snapshot_counts_what_the_filtration_counts. Qed.
Print Assumptions C14_snapshot_counts_what_the_filtration_counts.

(* THE PER-ORDER COUNTS, as lists: what the filtration reports at its index (trailing zeros dropped) is the list the
   snapshot reports (its top order is populated, so it has no trailing zero) *)
Theorem C14_snapshot_counts_per_order :
  forall hp f uid hp' c, Closed.cinv (f_rep f) -> copy_new hp (f_view f) uid = (hp', c, Ok tt) ->
  numberOfSimplicesOfOrder c = f_numberOfSimplicesOfOrder f.
Proof. exact SnapCounts.snap_counts_per_order. Qed.
Print Assumptions C14_snapshot_counts_per_order.
