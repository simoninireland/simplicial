(* C18 -- generators build exactly the advertised spaces.
   BOUNDED (kernel sweep, Sweeps.v): counts, Betti numbers, name of the top simplex and ring degrees for
   k_simplex(k) and k_skeleton(k), k <= 6, k_void(k), k <= 5, ring(n), n <= 12 (ValueError for n <= 2);
   lattices up to 6 x 6; six generator calls on every complex on <= 3 points leave what was there as it was.
   For every k and every target that meets the vertex-set reading: what k_simplex(k) / k_void(k) add, in vertex
   sets and in counts, with the frame.  For every k / n and every target: what a successful k_skeleton(k) /
   ring(n) adds, and that, whatever the outcome, every earlier simplex is left alone. *)
From Coq Require Import String ZArith Bool Arith List.
From SV Require Import Names Rep Complex Gen Small Sweeps VInv AwbSpec VSets GenSets.
From SV Require Import Counts.
From SV Require SweepsProved.


(* k_simplex(k): C(k+1, j+1) simplices of order j, Betti 1,0,..,0, top simplex named as asked;
   k_void(k): all proper faces of a (k+1)-simplex, a k-sphere; k_skeleton(k): k+1 points and all
   edges; ring(n): n points, n edges, every point on two edges, Betti 1,1 (ValueError for n <= 2) *)
Theorem C18_generators_in_range :
  forallb chk_k_simplex (seq 0 7) && forallb chk_k_void (seq 0 6) && forallb chk_k_skeleton (seq 0 7) &&
  forallb chk_ring (seq 0 13) = true.
Proof. exact SweepsProved.sweep_generators. Qed.
Print Assumptions C18_generators_in_range.

(* TriangularLattice(r, c), 1 <= r, c <= 6: r*c points; for r >= 2 Euler characteristic 1,
   Betti 1,0,0 (connected, no holes), no simplex above order 2 *)
Theorem C18_lattices_in_range : forallb (fun r => forallb (chk_lattice r) (seq 1 6)) (seq 1 6) = true.
Proof. exact sweep_lattices. Qed.
Print Assumptions C18_lattices_in_range.

(* each generator, called on an existing complex, leaves every pre-existing simplex as it was and
   builds its structure on fresh points *)
Theorem C18_target_intact_upto3_partial : forall c, In c complexes3 -> chk_gen_frame c = true.
Proof. exact generators_frame_upto3. Qed.
Print Assumptions C18_target_intact_upto3_partial.

(* EVERY COMPLEX THAT MEETS THE VERTEX-SET READING, EVERY k >= 1: k_simplex(k) creates k+1 points that
   were not there; the sets of points that carry a simplex afterwards are those that did before and
   the non-empty subsets of the new points; every pre-existing simplex keeps order, faces, basis *)
Theorem C18_k_simplex_vertex_sets :
  forall k id attr r r', vinv r -> 1 <= k -> k_simplex k id attr r = (r', Ok tt) ->
  exists new, length new = S k /\ NoDup new /\ (forall p, In p new -> containsSimplex r p = false) /\
    vinv r' /\
    (forall t, containsSimplex r t = true ->
       containsSimplex r' t = true /\ orderOf r' t = orderOf r t /\ faces r' t = faces r t /\ basisOf r' t = basisOf r t) /\
    (forall B, NoDup B -> B <> nil ->
       ((exists t, containsSimplex r' t = true /\ sameset (basisOf r' t) B) <->
        (exists t, containsSimplex r t = true /\ sameset (basisOf r t) B) \/ incl B new)).
Proof. exact k_simplex_vertex_sets. Qed.
Print Assumptions C18_k_simplex_vertex_sets.
(* k_void(k): the same on k+2 new points without the top simplex -- the proper non-empty subsets *)
Theorem C18_k_void_vertex_sets :
  forall k r r', vinv r -> k_void k r = (r', Ok tt) ->
  exists new, length new = S (S k) /\ NoDup new /\ (forall p, In p new -> containsSimplex r p = false) /\
    vinv r' /\
    (forall t, containsSimplex r t = true -> containsSimplex r' t = true /\ sameset (basisOf r' t) (basisOf r t)) /\
    (forall B, NoDup B -> B <> nil ->
       ((exists t, containsSimplex r' t = true /\ sameset (basisOf r' t) B) <->
        (exists t, containsSimplex r t = true /\ sameset (basisOf r t) B) \/ (incl B new /\ ~ incl new B))).
Proof. exact k_void_vertex_sets. Qed.
Print Assumptions C18_k_void_vertex_sets.

(* EVERY k, EVERY TARGET THAT MEETS THE VERTEX-SET READING: the counts are the binomials *)
Theorem C18_k_simplex_counts :
  forall k id attr r r', vinv r -> 1 <= k -> k_simplex k id attr r = (r', Ok tt) ->
  forall j, length (simplicesOfOrder r' j) = length (simplicesOfOrder r j) + binom (S k) (S j).
Proof. exact k_simplex_counts. Qed.
Print Assumptions C18_k_simplex_counts.
Theorem C18_k_void_counts :
  forall k r r', vinv r -> k_void k r = (r', Ok tt) ->
  forall j, length (simplicesOfOrder r' j) = length (simplicesOfOrder r j) + (if j <=? k then binom (S (S k)) (S j) else 0).
Proof. exact k_void_counts. Qed.
Print Assumptions C18_k_void_counts.

(* EVERY k, EVERY n, EVERY TARGET.  What k_skeleton(k) and ring(n) add when they succeed (GenEffect.plus r0 news fss r':
   r' is r0 plus the simplices news -- all new, each once --, the i-th with order |fss_i| - 1 and faces fss_i, and every
   simplex of r0 keeps its order and faces): k+1 new points and one new edge for each of the C(k+1, 2) pairs of them;
   n > 2 new points p_0 .. p_(n-1) and the n edges {p_i, p_(i+1)}, {p_(n-1), p_0} *)
From SV Require GenEffect GenFrame AttrInv Counts Shapes.
Import ListNotations.
Theorem C18_k_skeleton_on_any_target :
  forall k r0 r', Shapes.sinv r0 -> k_skeleton k r0 = (r', Ok tt) ->
  exists pts es, length pts = S k /\ length es = Counts.binom (S k) 2 /\
    GenEffect.plus r0 (pts ++ es) (repeat [] (S k) ++ combs 2 pts) r'.
Proof. exact GenEffect.k_skeleton_effect. Qed.
Print Assumptions C18_k_skeleton_on_any_target.
Theorem C18_ring_on_any_target :
  forall n r0 r', Shapes.sinv r0 -> ring n r0 = (r', Ok tt) ->
  2 < n /\ exists pts es, length pts = n /\ length es = n /\
    GenEffect.plus r0 (pts ++ es)
         (repeat [] n ++ map (fun i => [nth i pts (NInt 0); nth (S i) pts (NInt 0)]) (seq 0 (n - 1))
                     ++ [[nth (n - 1) pts (NInt 0); nth 0 pts (NInt 0)]]) r'.
Proof. exact GenEffect.ring_effect. Qed.
Print Assumptions C18_ring_on_any_target.
(* ... and whatever their outcome, every simplex the target had is still there with its order, position, faces, points
   and attribute dictionary (the same object) *)
Theorem C18_skeleton_and_ring_leave_the_target_alone :
  (forall r0 k r' x, AttrInv.ainv r0 -> k_skeleton k r0 = (r', x) -> GenFrame.full_frame r0 r') /\
  (forall r0 n r' x, AttrInv.ainv r0 -> ring n r0 = (r', x) -> GenFrame.full_frame r0 r').
Proof. split; [exact GenFrame.k_skeleton_frame|exact GenFrame.ring_frame]. Qed.
Print Assumptions C18_skeleton_and_ring_leave_the_target_alone.
