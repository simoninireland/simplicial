(* C04 -- closure, star, lookups and disjointness are exact.
   For every history: closureOf / partOf as reachability by face / coface steps and their duality, the order
   in which closureOf and the four variants of partOf list, disjoint() = no two entries have a member of their
   closures in common.  For every complex that meets the vertex-set reading: closure = subsets, star =
   supersets, 2^(k+1)-1 members, lookups by basis and by faces exact, meeting = sharing a point.
   BOUNDED (kernel sweep, Sweeps.v): every complex on at most 4 labelled points, every simplex, all four flag
   combinations; disjoint() on all 1-, 2- and 3-tuples of simplices of every complex on at most 3 points.
   Not expressible in the model: the Python types of returned names (names are values). *)
From Coq Require Import String ZArith Bool Arith List.
From SV Require Import Names Rep Complex Homology Filtration Gen World Small Sweeps NamesFacts RepInv Shapes StarOrder Duality VInv AwbSpec VSets Lookup ClosureCount.
From SV Require Import ClosureCount StarOrder SortedViews.
Import ListNotations.


Theorem C04_closure_star_lookup_upto4_partial : forall c, In c complexes4 -> chk_closure_star (build c) = true.
Proof. exact closure_star_upto4. Qed.
Print Assumptions C04_closure_star_lookup_upto4_partial.

Theorem C04_disjoint_upto3_partial : forall c, In c complexes3 -> chk_disjoint (build c) = true.
Proof. exact disjoint_upto3. Qed.
Print Assumptions C04_disjoint_upto3_partial.

(* EVERY HISTORY: t is in the closure of s iff s is part of t (whatever the flags for the listing
   direction; both with the simplex itself included) *)
Theorem C04_closure_star_duality :
  forall r, sinv r -> forall s t ks is kt it rs rt Ls Lt,
  assoc s (r_simp r) = Some (ks, is) -> assoc t (r_simp r) = Some (kt, it) ->
  closureOf r s rs false = Ok Ls -> partOf r t rt false = Ok Lt ->
  (In t Ls <-> In s Lt).
Proof. exact closure_star_duality. Qed.
Print Assumptions C04_closure_star_duality.
(* closureOf(s) is what is reached from s by face steps, partOf(s) what is reached by coface steps *)
Theorem C04_closure_is_reachability_by_faces :
  forall r, sinv r -> forall s k is rev L, assoc s (r_simp r) = Some (k, is) -> closureOf r s rev false = Ok L ->
  forall t, In t L <-> exists j, fchain r j s t.
Proof. exact closureOf_spec. Qed.
Print Assumptions C04_closure_is_reachability_by_faces.
Theorem C04_star_is_reachability_by_cofaces :
  forall r, sinv r -> forall s k is rev L, assoc s (r_simp r) = Some (k, is) -> partOf r s rev false = Ok L ->
  forall t, In t L <-> exists j, cchain r j s t.
Proof. exact partOf_spec. Qed.
Print Assumptions C04_star_is_reachability_by_cofaces.
(* partOf(s, reverse=True) lists simplices of the complex, none twice, every coface of an element
   before the element (cofaces first: the order deleteSimplex relies on) *)
Theorem C04_star_listing :
  forall r, sinv r -> forall s k is L, assoc s (r_simp r) = Some (k, is) -> partOf r s true false = Ok L ->
  NoDup L /\ (forall t, In t L -> containsSimplex r t = true) /\
  (forall i t u, nth_error L i = Some t -> In u (cofaces r t) -> exists j, j < i /\ nth_error L j = Some u).
Proof. exact star_positions. Qed.
Print Assumptions C04_star_listing.

(* IN VERTEX SETS, every complex that meets the vertex-set reading (C01_vertex_set_reading_at_every_point):
   closureOf(s) is exactly the simplices whose points are among s's, partOf(s) exactly those whose
   points include s's *)
Theorem C04_closure_is_subsets :
  forall r s rev L, vinv r -> containsSimplex r s = true -> closureOf r s rev false = Ok L ->
  forall t, In t L <-> containsSimplex r t = true /\ incl (basisOf r t) (basisOf r s).
Proof. exact closureOf_is_subsets. Qed.
Print Assumptions C04_closure_is_subsets.
Theorem C04_star_is_supersets :
  forall r s rev L, vinv r -> containsSimplex r s = true -> partOf r s rev false = Ok L ->
  forall t, In t L <-> containsSimplex r t = true /\ incl (basisOf r s) (basisOf r t).
Proof. exact partOf_is_supersets. Qed.
Print Assumptions C04_star_is_supersets.
(* the closure of a simplex of order k lists no simplex twice (any complex of any history) and has
   exactly 2^(k+1) - 1 elements *)
Theorem C04_closure_without_repeats :
  forall r s rev L, sinv r -> closureOf r s rev false = Ok L -> NoDup L.
Proof. exact closureOf_nodup. Qed.
Print Assumptions C04_closure_without_repeats.
Theorem C04_closure_count :
  forall r s k j rev L, vinv r -> assoc s (r_simp r) = Some (k, j) ->
  closureOf r s rev false = Ok L -> S (length L) = 2 ^ (S k).
Proof. exact closureOf_count. Qed.
Print Assumptions C04_closure_count.
(* looking a simplex up by its basis (points of the complex, no repeats, not empty): the one simplex
   on exactly these points, None exactly when there is none, never an exception *)
Theorem C04_lookup_by_basis_exact :
  forall r bs, vinv r -> pts r bs -> NoDup bs -> bs <> nil ->
  match c_simplexWithBasis r bs false with
  | Ok (Some s) => containsSimplex r s = true /\ sameset (basisOf r s) bs /\
                   forall t, containsSimplex r t = true -> sameset (basisOf r t) bs -> t = s
  | Ok None => forall t, containsSimplex r t = true -> ~ sameset (basisOf r t) bs
  | Raise _ => False
  end.
Proof. exact lookup_by_basis_exact. Qed.
Print Assumptions C04_lookup_by_basis_exact.

(* EVERY HISTORY: closureOf is sorted by order -- ascending, descending with reverse=True -- with or without s *)
Theorem C04_closure_sorted_by_order :
  forall r s rev excl L, sinv r -> closureOf r s rev excl = Ok L ->
  if rev then ndesc (map (ord r) L) else nasc (map (ord r) L).
Proof. exact closureOf_sorted. Qed.
Print Assumptions C04_closure_sorted_by_order.
(* exclude_self drops s and nothing else, at the end where it stands *)
Theorem C04_closure_exclude_self :
  forall r s L1 L2, closureOf r s false false = Ok L1 -> closureOf r s true false = Ok L2 ->
  exists M1 M2, closureOf r s false true = Ok M1 /\ closureOf r s true true = Ok M2 /\ L1 = M1 ++ [s] /\ L2 = s :: M2.
Proof. exact closureOf_exclude_self. Qed.
Print Assumptions C04_closure_exclude_self.
(* partOf: the four variants list the same simplices (recorded with their orders) ascending / descending, with s
   in front / at the end or left out; everything but s has an order strictly above s's *)
Theorem C04_star_variants_sorted :
  forall r s k j, sinv r -> assoc s (r_simp r) = Some (k, j) ->
  exists A D : list (nat * name),
    partOf r s false true = Ok (map snd A) /\ partOf r s false false = Ok (s :: map snd A) /\
    partOf r s true true = Ok (map snd D) /\ partOf r s true false = Ok (map snd D ++ [s]) /\
    asc A /\ desc D /\ (forall q, In q A <-> In q D) /\
    (forall o c, In (o, c) A -> k < o /\ exists jc, assoc c (r_simp r) = Some (o, jc)).
Proof. exact partOf_variants. Qed.
Print Assumptions C04_star_variants_sorted.

(* LOOKUP BY FACES, every complex that meets the vertex-set reading: for a duplicate-free list of two or more simplices
   of one order, simplexWithFaces answers the one simplex whose faces are exactly those, None exactly when there is
   none, and never raises *)
From SV Require LookupFaces.
Theorem C04_lookup_by_faces_exact :
  forall r fs, VInv.vinv r -> NoDup fs -> 2 <= length fs ->
  (forall f, In f fs -> exists j, assoc f (r_simp r) = Some (length fs - 1 - 1, j)) ->
  match simplexWithFaces r fs with
  | Ok (Some s) => containsSimplex r s = true /\ VInv.sameset (faces r s) fs /\
                   forall t, containsSimplex r t = true -> VInv.sameset (faces r t) fs -> t = s
  | Ok None => forall t, containsSimplex r t = true -> ~ VInv.sameset (faces r t) fs
  | Raise _ => False
  end.
Proof. exact LookupFaces.lookup_by_faces_exact. Qed.
Print Assumptions C04_lookup_by_faces_exact.

(* DISJOINTNESS, any list of simplices of the complex (of any length, repetitions allowed): disjoint(ss) never raises and
   answers True exactly when no two entries of the list have a member of their closures in common -- which, under the
   vertex-set reading, is: no two entries have a point in common (an entry listed twice meets itself) *)
From SV Require DisjointSpec.
Theorem C04_disjoint_exact :
  forall r ss, (forall s, In s ss -> containsSimplex r s = true) ->
  exists b, disjoint r ss = Ok b /\ (b = true <-> ForallOrdPairs (fun s t => ~ DisjointSpec.meet r s t) ss).
Proof. exact DisjointSpec.disjoint_spec. Qed.
Print Assumptions C04_disjoint_exact.
Theorem C04_meeting_is_sharing_a_point :
  forall r s t, VInv.vinv r -> containsSimplex r s = true -> containsSimplex r t = true ->
  (DisjointSpec.meet r s t <-> exists p, In p (basisOf r s) /\ In p (basisOf r t)).
Proof. exact DisjointSpec.meet_iff_common_point. Qed.
Print Assumptions C04_meeting_is_sharing_a_point.
