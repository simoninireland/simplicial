(* C07 -- Smith normal forms and cycle bases.
   Proved for every complex of every history (sinv): smithNormalForm(k) has the shape of d_k and is a partial
   identity of size rank d_k; Z(k) returns as many chains as the nullity, each with empty boundary -- on the
   matrix and through the public boundary() -- and linearly independent mod 2: a basis of the cycles. *)
From Coq Require Import ZArith List.
From mathcomp Require Import ssreflect ssrfun ssrbool eqtype ssrnat seq choice fintype finfun bigop finset fingroup perm ssralg zmodp matrix mxalgebra.
From SV Require Import Names Rep Complex Homology ListMat SnfCount Rank Betti RepInv ZCycles ZProofs ZProofs2 Shapes ShapesReach ZIndep ZAll.
From SV Require ZBoundary.

(* smithNormalForm(k) has the shape of the order-k boundary operator, ones on a leading stretch of
   the diagonal whose length is that operator's GF(2) rank, zeros elsewhere -- for every
   representation and every order (0 and above the maximum included) *)
Theorem C07_snf_shape :
  forall (r : rep) (k : nat),
  let B := boundaryOperator r k in
  let '(nr, nc, D) := smithNormalForm r k in
  nr = nrows B /\ nc = ncols B /\ pidform nr nc (rk B) D.
Proof. exact snf_pidform. Qed.
Print Assumptions C07_snf_shape.

(* Z(k) returns exactly as many chains as the nullity of the order-k boundary operator
   (number of columns minus GF(2) rank) -- for every representation and order *)
Theorem C07_Z_count :
  forall r k, length (Z1 r k) = (length (simplicesOfOrder r k) - rk (boundaryOperator r k))%coq_nat.
Proof. exact Z1_count. Qed.
Print Assumptions C07_Z_count.

(* every chain returned by Z(k) has empty boundary: the mod-2 sum of the boundary-operator columns
   of its members (a member mentioned twice counted twice) is zero in every row -- for every
   complex satisfying the shape invariant, i.e. every complex of every history (C03) *)
Theorem C07_Z_chains_are_cycles :
  forall r k ch, sinv r -> List.In ch (Z1 r k) ->
  forall i, (i < nrows (boundaryOperator r k))%coq_nat -> vsum name (colval r k) ch i = false.
Proof. exact Z1_are_cycles. Qed.
Print Assumptions C07_Z_chains_are_cycles.

(* ... linearly independent mod 2: the matrix over GF(2) whose columns are the parity vectors of
   the returned chains (how often, mod 2, a chain mentions the t-th simplex of the listing) has
   rank = the number of chains *)
Theorem C07_Z_chains_independent :
  forall r k, sinv r ->
  \rank (mxf (length (simplicesOfOrder r k)) (length (Z1 r k))
             (fun t j => par (lab_in (simplicesOfOrder r k)) (List.nth j (Z1 r k) nil) t)) = length (Z1 r k).
Proof. exact Z1_independent_all. Qed.
Print Assumptions C07_Z_chains_independent.

(* Z(k) returns a basis of the cycle group: count, cycles, independence *)
Theorem C07_Z_is_a_cycle_basis :
  forall r k, sinv r ->
  length (Z1 r k) = (length (simplicesOfOrder r k) - rk (boundaryOperator r k))%coq_nat /\
  (forall ch, List.In ch (Z1 r k) ->
     forall i, (i < nrows (boundaryOperator r k))%coq_nat -> vsum name (colval r k) ch i = false) /\
  \rank (mxf (length (simplicesOfOrder r k)) (length (Z1 r k))
             (fun t j => par (lab_in (simplicesOfOrder r k)) (List.nth j (Z1 r k) nil) t)) = length (Z1 r k).
Proof. exact Z1_is_a_cycle_basis. Qed.
Print Assumptions C07_Z_is_a_cycle_basis.

(* THROUGH THE PUBLIC CALL, every complex of every history (shape invariant) and every order:
   boundary() accepts every chain Z() returns -- its members are simplices of that order -- and
   answers the empty list *)
Theorem C07_returned_chains_have_empty_boundary :
  forall r k ch, sinv r -> List.In ch (Z1 r k) -> boundary r ch = Ok nil.
Proof. exact ZBoundary.Z1_boundary_empty. Qed.
Print Assumptions C07_returned_chains_have_empty_boundary.
