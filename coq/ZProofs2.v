(* ZProofs2.v -- every chain returned by Z() is a cycle: the mod-2 sum of the columns of the
   order-k boundary operator named by its members is zero (C07).  Plain Coq on top of ZCycles. *)
From Coq Require Import String ZArith Bool Arith List Lia.
From SV Require Import Names ListFacts Rep Homology ListMat SnfCount RepInv ZCycles.
From SV Require Rank Betti ZProofs.
Import ListNotations.
Open Scope nat_scope.

(* the column of the boundary operator a simplex name stands for (by its position in the listing) *)
Definition colval (r : rep) (k : nat) (s : name) : nat -> bool :=
  fun i => match index_of s (simplicesOfOrder r k) with
           | Some t => entry (rows_of (boundaryOperator r k)) i t
           | None => false
           end.

Theorem Z1_cycles r k ch :
  NoDup (simplicesOfOrder r k) ->
  ncols (boundaryOperator r k) = length (simplicesOfOrder r k) ->
  In ch (Z1 r k) ->
  forall i, i < nrows (boundaryOperator r k) -> vsum name (colval r k) ch i = false.
Proof.
  intros Hnd Hshape Hin.
  destruct (ZProofs.Z1_spec r k) as (A & cls' & ER & Hpid & Hl & EZ).
  set (B := boundaryOperator r k) in *. set (names := simplicesOfOrder r k) in *.
  (* ch labels a column behind the rank, and those are zero *)
  rewrite EZ in Hin. destruct (In_nth _ _ [] Hin) as (j & Hj & <-).
  rewrite skipn_length in Hj. rewrite nth_skipn.
  pose proof (zero_column_is_cycle name (nrows B) (ncols B) (colval r k) (rows_of B) (map (fun s => [s]) names)
                (Betti.rk B + j) (wfm_rows_of B)) as Hz.
  rewrite ER in Hz. apply Hz.
  - now rewrite map_length.
  - intros i t Hi Ht. rewrite (nth_map_in _ (NInt 0)) by lia. unfold vsum, colval. simpl. rewrite xorb_false_r.
    fold names. now rewrite (index_of_nth _ names t Hnd) by (apply nth_error_nth'; lia).
  - lia.
  - intros a Ha. destruct Hpid as (_ & _ & _ & Hent). rewrite Hent by lia.
    destruct (Nat.eqb_spec a (Betti.rk B + j)) as [->|]; [apply Nat.ltb_ge; lia | reflexivity].
Qed.
