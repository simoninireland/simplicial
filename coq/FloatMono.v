(* FloatMono.v -- C12: the closeness test distance(p, q) <= eps on binary64 numbers is monotone in eps: a pair that is
   close at eps1 is close at every eps2 with eps1 <= eps2 (as doubles).  Uses the standard library's specification of
   the primitive comparison (FloatAxioms.leb_spec: leb is SFleb on the decoded numbers) -- an axiom of the standard
   library, named in the trusted base -- and proves that SFleb is transitive: it compares a key that embeds the
   decoded numbers other than NaN into triples of integers ordered lexicographically. *)
From Coq Require Import ZArith Bool Lia PrimFloat SpecFloat FloatAxioms List.
From SV Require Import Floats.

(* SFleb is <= of an order-embedding key, lexicographic in (class and sign, exponent, mantissa), NaN left out *)
Definition SFkey (x : spec_float) : Z * Z * Z :=
  match x with
  | S754_zero _ | S754_nan => (0, 0, 0)
  | S754_infinity s => (if s then -2 else 2, 0, 0)
  | S754_finite s m e => if s then (-1, - e, Z.neg m) else (1, e, Z.pos m)
  end%Z.
Definition lexle (a b : Z * Z * Z) : Prop :=
  let '(a1, a2, a3) := a in let '(b1, b2, b3) := b in
  (a1 < b1 \/ a1 = b1 /\ (a2 < b2 \/ a2 = b2 /\ a3 <= b3))%Z.

Lemma SFleb_key x y : SFleb x y = true <-> x <> S754_nan /\ y <> S754_nan /\ lexle (SFkey x) (SFkey y).
Proof.
  unfold SFleb, SFcompare.
  destruct x as [sx|sx| |sx mx ex], y as [sy|sy| |sy my ey]; try destruct sx; try destruct sy; cbn -[Z.compare Pos.compare].
  (* two finite numbers of one sign: by exponent, then by mantissa *)
  all: try (change (Pos.compare_cont Eq mx my) with (mx ?= my)%positive;
            destruct (Z.compare_spec ex ey), (Pos.compare_spec mx my); cbn).
  (* every case reads `true = true` or `false = true` against a closed statement of arithmetic *)
  all: split; [intros E; try discriminate E; repeat split; try discriminate; lia
              | intros (H1 & H2 & H3); try reflexivity; try congruence; lia].
Qed.

Lemma SFleb_trans x y z : SFleb x y = true -> SFleb y z = true -> SFleb x z = true.
Proof.
  rewrite !SFleb_key. intros (X & _ & H1) (_ & Z & H2). split; [exact X|]. split; [exact Z|].
  destruct (SFkey x) as [[a1 a2] a3], (SFkey y) as [[b1 b2] b3], (SFkey z) as [[c1 c2] c3]. unfold lexle in *. lia.
Qed.

Theorem leb_trans (x y z : float) : (x <=? y)%float = true -> (y <=? z)%float = true -> (x <=? z)%float = true.
Proof. rewrite !leb_spec. apply SFleb_trans. Qed.

Theorem close_monotone eps1 eps2 p q : (eps1 <=? eps2)%float = true -> close eps1 p q = true -> close eps2 p q = true.
Proof. unfold close. intros He Hc. exact (leb_trans _ _ _ Hc He). Qed.

Theorem close_pairs_monotone eps1 eps2 (pairs : list (list float * list float)) : (eps1 <=? eps2)%float = true ->
  incl (filter (fun pq => close eps1 (fst pq) (snd pq)) pairs) (filter (fun pq => close eps2 (fst pq) (snd pq)) pairs).
Proof.
  intros He pq Hin. apply filter_In in Hin. destruct Hin as [Hin Hc]. apply filter_In. split; [exact Hin|].
  now apply (close_monotone eps1 eps2).
Qed.
