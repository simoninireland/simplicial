(* ZIndep.v -- the chains returned by Z() are linearly independent mod 2 (C07).  The label lists
   carried by _reduceBoundaries, read as parity vectors over the original columns, form at every
   stage an invertible matrix over GF(2) (column exchanges and column additions preserve the rank,
   which starts as that of the identity); the returned chains are some of its columns. *)
From Coq Require Import ZArith Lia.
From mathcomp Require Import ssreflect ssrfun ssrbool eqtype ssrnat seq choice fintype finfun bigop finset fingroup perm ssralg zmodp matrix mxalgebra.
From SV Require Import Names Rep Homology ListMat SnfCount Rank Betti RepInv ZProofs.
From SV Require ZCycles.
Set Implicit Arguments.
Unset Strict Implicit.
Unset Printing Implicit Defensive.
Import GRing.Theory.
Local Open Scope ring_scope.

(* Rank.rank_csw and rank_cadd_by with the column operation written out on the entries *)
Lemma rank_colswap m n x l (f : nat -> nat -> bool) : (x < n)%N -> (l < n)%N ->
  \rank (mxf m n (fun i j => f i (sw x l j))) = \rank (mxf m n f).
Proof. exact: rank_csw. Qed.

Lemma rank_coladd m n x (c : nat -> bool) (f : nat -> nat -> bool) : (x < n)%N ->
  \rank (mxf m n (fun i j => if Nat.ltb x j && c j then xorb (f i j) (f i x) else f i j)) = \rank (mxf m n f).
Proof. exact: rank_cadd_by. Qed.

Section Indep.
Variables (L : Type) (lab : L -> nat).

(* the parity vector of a chain: how often (mod 2) it mentions the simplex with label t *)
Definition par (l : list L) (t : nat) : bool :=
  List.fold_right (fun s acc => xorb (Nat.eqb (lab s) t) acc) false l.

Lemma par_app l1 l2 t : par (l1 ++ l2) t = xorb (par l1 t) (par l2 t).
Proof. exact: (@ZCycles.vsum_app L (fun s => Nat.eqb (lab s))). Qed.

Definition Pf (cls : list (list L)) : nat -> nat -> bool := fun t j => par (List.nth j cls nil) t.

Variables (rb cb : nat).

(* the labels undergo the column operations of the step: an exchange, then additions of column x *)
Lemma step_Pf_rank x k l M (cls : list (list L)) :
  wfm rb cb M -> (x <= k /\ k < rb)%coq_nat -> (x <= l /\ l < cb)%coq_nat -> length cls = cb ->
  \rank (mxf cb cb (Pf (snd (reduce_step x k l M cls)))) = \rank (mxf cb cb (Pf cls)).
Proof.
move=> HM Hk Hl Hlen.
pose pr j := radd x (csw x l (rsw x k (entry M))) x j.
rewrite -(@rank_colswap cb cb x l (Pf cls)); try (apply/ltP; lia).
rewrite -(@rank_coladd cb cb x pr (fun i j => Pf cls i (sw x l j))); last by apply/ltP; lia.
apply/esym/congr1/mxf_ext => t j _ /ltP Hj.
rewrite /Pf (@step_labels rb cb x k l M L cls HM Hk Hl j Hlen Hj) -/(pr j).
by case: (Nat.ltb x j && pr j); rewrite ?par_app.
Qed.

Lemma reduce_Pf_rank M (cls : list (list L)) : wfm rb cb M -> length cls = cb ->
  \rank (mxf cb cb (Pf (snd (reduceB rb cb M cls)))) = \rank (mxf cb cb (Pf cls)).
Proof.
move=> HM Hlen.
pose Q (_ : bmat) cls' := length cls' = cb /\ \rank (mxf cb cb (Pf cls')) = \rank (mxf cb cb (Pf cls)).
have [] // := @reduce_keeps rb cb L Q _ (Nat.min rb cb) 0 M cls HM.
move=> x k l M' cls' HM' Hk Hl _ [Hc Hr].
by split; [rewrite step_length | rewrite (step_Pf_rank HM' Hk Hl Hc)].
Qed.
End Indep.

Lemma mxf_tr m n f : (mxf m n f)^T = mxf n m (fun i j => f j i).
Proof. by apply/matrixP => i j; rewrite !mxE. Qed.

Lemma cols_of_full_rank n r0 nz (f : nat -> nat -> bool) : (r0 + nz = n)%N ->
  \rank (mxf n n f) = n -> \rank (mxf n nz (fun t j => f t (r0 + j)%N)) = nz.
Proof.
move=> Hn Hfull.
have Hb (j : 'I_nz) : (r0 + j < n)%N by rewrite -Hn ltn_add2l.
pose o j := Ordinal (Hb j).
(* S selects the columns r0.. : the selection is S times the whole, and S S^T = 1 *)
pose S : 'M[F2]_(nz, n) := \matrix_(j, i) (i == o j)%:R.
have sumS j (F : 'I_n -> F2) : \sum_i S j i * F i = F (o j).
  rewrite (bigD1 (o j)) //= mxE eqxx mul1r big1 ?addr0 // => i /negbTE Hi.
  by rewrite mxE Hi mul0r.
have HQ : (mxf n nz (fun t j => f t (r0 + j)%N))^T = S *m (mxf n n f)^T.
  by apply/matrixP => j t; rewrite mxE [RHS]mxE sumS !mxE.
have Hfree : row_free (mxf n n f)^T by rewrite /row_free mxrank_tr Hfull.
rewrite -mxrank_tr HQ mxrankMfree //.
apply/eqP; rewrite -/(row_free S); apply/row_freeP; exists S^T.
apply/matrixP => j j'; rewrite mxE sumS !mxE -!val_eqE /= eqn_add2l.
by rewrite eq_sym.
Qed.

Definition lab_in (names : list name) (s : name) : nat :=
  match index_of s names with Some t => t | None => length names end.

Lemma Pf_init names : List.NoDup names ->
  mxf (length names) (length names) (Pf (lab_in names) (List.map (fun s => [:: s]) names)) = 1%:M.
Proof.
move=> Hnd; apply/matrixP => t j; rewrite !mxE /Pf.
have Hj : (j < length names)%coq_nat by apply/ltP.
rewrite (ListFacts.nth_map_in _ (NInt Z0)) //= /lab_in.
rewrite (@index_of_nth _ names j Hnd); last exact: List.nth_error_nth'.
rewrite Bool.xorb_false_r eqb_eqn /b2f eq_sym.
by rewrite (inj_eq val_inj).
Qed.

(* the chains returned by Z(k), as parity vectors over the k-simplices in listing order, are
   linearly independent over GF(2): the matrix having them as columns has rank = their number *)
Theorem Z1_independent r k :
  List.NoDup (simplicesOfOrder r k) ->
  ncols (boundaryOperator r k) = length (simplicesOfOrder r k) ->
  \rank (mxf (length (simplicesOfOrder r k)) (length (Z1 r k))
             (fun t j => par (lab_in (simplicesOfOrder r k)) (List.nth j (Z1 r k) nil) t)) = length (Z1 r k).
Proof.
move=> Hnd Hshape.
have [A [cls' [ER [_ [Hl ->]]]]] := Z1_spec r k.
set B := boundaryOperator r k in ER Hshape *. set names := simplicesOfOrder r k in ER Hl Hnd Hshape *.
have Hr : \rank (mxf (length names) (length names) (Pf (lab_in names) cls')) = length names.
  have := @reduce_Pf_rank _ (lab_in names) _ _ _ (List.map (fun s => [:: s]) names) (wfm_rows_of B).
  by rewrite ER List.map_length Hshape Pf_init // mxrank1; exact.
have Hr0 := rk_le_cols B.
rewrite List.skipn_length Hl.
rewrite -[RHS](@cols_of_full_rank (length names) (rk B) _ (Pf (lab_in names) cls')) ?Hr //; last first.
  by rewrite -plusE; lia.
by congr (\rank _); apply: mxf_ext => t j _ _; rewrite /Pf ListFacts.nth_skipn.
Qed.
