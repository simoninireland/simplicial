(* ReachGen.v -- the algorithms of base.py (delete by basis, bulk delete, restrict, ensureBasis, add
   by basis, subdivide, relabel, bulk add, copy) only go through addSimplex, relabelSimplex and
   deleteSimplex.  So any predicate on representations that (1) is invariant under same_obs, i.e.
   does not look at the name counter or the allocation counter, (2) holds of the empty
   representation and (3) is kept by those three is kept by every algorithm, whatever its outcome.
   After the section is closed each lemma asks only for the hypotheses its algorithm needs.
   Plain Coq. *)
From Coq Require Import String ZArith Bool Arith List Lia.
From SV Require Import Names NamesFacts ListFacts FoldRes Rep Fresh Complex Atomic.
Import ListNotations.
Open Scope nat_scope.

(* [inst L at I with db]: the lemma L of the section below at the predicate I, its hypotheses
   taken from the hint database db *)
Tactic Notation "inst" constr(L) "at" constr(I) "with" ident(db) := intros; eapply (L I); eauto with db.

Lemma deleteSimplex_by_forceDelete (I : rep -> Prop) :
  (forall r s r' x, I r -> forceDeleteSimplex r s = (r', x) -> I r') ->
  forall r s r' x, I r -> deleteSimplex r s = (r', x) -> I r'.
Proof.
  intros Hf r s r' x Hinv H. unfold deleteSimplex in H. destruct (partOf r s true false) as [ts|e].
  - eapply (fold_res_keeps I (fun r1 t => forceDeleteSimplex r1 t)); [exact Hf|exact Hinv|exact H].
  - now injection H as <- _.
Qed.

Section AnyInvariant.
Variable I : rep -> Prop.
Hypothesis I_same_obs : forall r r', same_obs r r' -> I r -> I r'.
Hypothesis I_empty : forall uid, I (empty_rep uid).
Hypothesis addSimplex_I : forall r fs id attr r' x, I r -> addSimplex r fs id attr = (r', x) -> I r'.
Hypothesis relabelSimplex_I : forall r s q r' x, I r -> relabelSimplex r s q = (r', x) -> I r'.
Hypothesis deleteSimplex_I : forall r s r' x, I r -> deleteSimplex r s = (r', x) -> I r'.

Lemma newSimplex_I r d r' x : I r -> newSimplex r d = (r', x) -> I r'.
Proof.
  intros Hinv H. destruct (newSimplex_fresh r d) as (i & id & E & _). rewrite E in H. injection H as <- _.
  eapply I_same_obs; [apply same_obs_set_seq | exact Hinv].
Qed.

Lemma alloc_I r : I r -> I (fst (alloc r)).
Proof. intros H. eapply I_same_obs; [apply same_obs_alloc | exact H]. Qed.

Theorem deleteSimplexWithBasis_I r bs r' x : I r -> deleteSimplexWithBasis r bs = (r', x) -> I r'.
Proof.
  intros Hinv H. unfold deleteSimplexWithBasis in H.
  destruct (c_simplexWithBasis r bs false) as [[s|]|e]; try (now injection H as <- _).
  eapply deleteSimplex_I; eauto.
Qed.

Theorem deleteSimplices_I r ss r' x : I r -> deleteSimplices r ss = (r', x) -> I r'.
Proof.
  intros Hinv H. unfold deleteSimplices in H.
  eapply (fold_res_keeps I (fun r1 s => if containsSimplex r1 s then deleteSimplex r1 s else (r1, Ok tt))); [|exact Hinv|exact H].
  intros r1 a0 r2 x2 Hr1 E. destruct (containsSimplex r1 a0).
  - eapply deleteSimplex_I; eauto.
  - now injection E as <- _.
Qed.

Theorem restrictBasisTo_I r bs r' x : I r -> restrictBasisTo r bs = (r', x) -> I r'.
Proof.
  intros Hinv H. unfold restrictBasisTo in H. destruct (c_isBasis r bs true); [|now injection H as <- _].
  destruct (retain_loop _ r _ _) as [retain|e]; [|now injection H as <- _].
  eapply (fold_res_keeps I (fun r1 s => if containsSimplex r1 s && negb (memn s retain) then deleteSimplex r1 s else (r1, Ok tt)));
    [|exact Hinv|exact H].
  intros r1 a0 r2 x2 Hr1 E. destruct (containsSimplex r1 a0 && negb (memn a0 retain)).
  - eapply deleteSimplex_I; eauto.
  - now injection E as <- _.
Qed.

Lemma ensure_add_I bs attr : forall r r' x, I r ->
  ensure_add rep containsSimplex orderOf addSimplex r bs attr = (r', x) -> I r'.
Proof.
  induction bs as [|b t IH]; intros r r' x Hinv H; simpl in H.
  - now injection H as <- _.
  - destruct (containsSimplex r b).
    + destruct (orderOf r b) as [[|k]|e]; try (now injection H as <- _). eapply IH; eauto.
    + destruct (addSimplex r [] (Some b) attr) as [r1 [n|e]] eqn:E.
      * eapply IH; [|exact H]. eapply addSimplex_I; eauto.
      * injection H as <- _. eapply addSimplex_I; eauto.
Qed.

Theorem ensureBasis_I r bs attr r' x : I r -> c_ensureBasis r bs attr = (r', x) -> I r'.
Proof.
  intros Hinv H. unfold c_ensureBasis, ensureBasis in H.
  destruct (ensure_check rep containsSimplex orderOf r bs); [|now injection H as <- _].
  eapply ensure_add_I; eauto.
Qed.

Lemma awb_I fuel : forall r id attr k bs r' x, I r -> awb rep (fun r0 => r0) (fun _ r0 => r0) containsSimplex orderOf addSimplex fuel r id attr k bs = (r', x) -> I r'.
Proof.
  induction fuel as [|f IH]; intros r id attr k bs r' x Hinv H; simpl in H.
  - now injection H as <- _.
  - destruct (simplexWithBasis rep (fun r0 => r0) containsSimplex orderOf r bs false) as [[s|]|e];
      try (now injection H as <- _).
    (* the recursive calls over the facets *)
    set (F := fun (acc : rep * res (list name)) (pfs : list name) =>
                match acc with
                | (st', Raise e) => (st', Raise e)
                | (st', Ok fs) =>
                    match awb rep (fun r0 => r0) (fun _ r'0 => r'0) containsSimplex orderOf addSimplex f st' id attr k pfs with
                    | (st'', Ok s) => (st'', Ok (fs ++ [s]))
                    | (st'', Raise e) => (st'', Raise e)
                    end
                end) in H.
    assert (HF : forall l acc, I (fst acc) -> I (fst (fold_left F l acc))).
    { induction l as [|pfs l IHl]; intros acc Hacc; simpl; auto. apply IHl.
      destruct acc as [st' [fs|e]]; simpl in *; auto.
      destruct (awb rep _ _ _ _ _ f st' id attr k pfs) as [st'' [s|e]] eqn:E; simpl;
        eapply (IH st' id attr k pfs); eauto. }
    destruct (fold_left F (drop_one bs) (r, Ok [])) as [st1 rfs] eqn:EF.
    assert (Hst1 : I st1) by (specialize (HF (drop_one bs) (r, Ok []) Hinv); now rewrite EF in HF).
    destruct rfs as [fs|e]; [|now injection H as <- _].
    destruct (k =? length bs - 1).
    + eapply addSimplex_I; eauto.
    + destruct (newSimplex st1 (length bs - 1)) as [r1 [n1|e1]] eqn:E1.
      * assert (Hr1 : I r1) by (eapply newSimplex_I; eauto).
        destruct (name_eqb n1 id).
        -- destruct (newSimplex r1 (length bs - 1)) as [r2 [n2|e2]] eqn:E2.
           ++ eapply addSimplex_I; [|exact H]. eapply newSimplex_I; eauto.
           ++ injection H as <- _. eapply newSimplex_I; eauto.
        -- eapply addSimplex_I; eauto.
      * injection H as <- _. eapply newSimplex_I; eauto.
Qed.

Theorem addSimplexWithBasis_I r bs id attr r' x : I r -> c_addSimplexWithBasis r bs id attr = (r', x) -> I r'.
Proof.
  intros Hinv H. unfold c_addSimplexWithBasis, addSimplexWithBasis in H.
  destruct bs as [|b0 bs0]; [now injection H as <- _|].
  set (bs := b0 :: bs0) in *.
  destruct (match id with
            | Some n => containsSimplex r n || ((0 <? length bs - 1) && memn n bs)
            | None => false
            end); [now injection H as <- _|].
  assert (Hst : I (fst (match attr with Some h => (r, h) | None => let '(r'0, h) := alloc r in (r'0, h) end))).
  { destruct attr as [h0|]; [exact Hinv|]. unfold alloc. simpl.
    apply (I_same_obs r); [repeat split | exact Hinv]. }
  destruct (match attr with Some h => (r, h) | None => let '(r'0, h) := alloc r in (r'0, h) end) as [st h]. simpl in Hst.
  destruct (simplexWithBasis rep (fun r0 => r0) containsSimplex orderOf st bs false) as [[s|]|e];
    try (now injection H as <- _).
  destruct (length bs - 1 =? 0).
  - eapply addSimplex_I; eauto.
  - destruct (ensureBasis rep containsSimplex orderOf addSimplex st bs (Some h)) as [st1 [[]|e]] eqn:E1.
    + assert (Hst1 : I st1) by (eapply ensureBasis_I; eauto).
      destruct id as [n|].
      * eapply awb_I; eauto.
      * destruct (newSimplex st1 (length bs - 1)) as [r2 [n|e]] eqn:E2.
        -- eapply awb_I; [|exact H]. eapply newSimplex_I; eauto.
        -- injection H as <- _. eapply newSimplex_I; eauto.
    + injection H as <- _. eapply ensureBasis_I; eauto.
Qed.

Theorem barycentricSubdivide_I r s pts r' x : I r -> barycentricSubdivide r s pts = (r', x) -> I r'.
Proof.
  intros Hinv H. unfold barycentricSubdivide in H.
  destruct (negb (containsSimplex r s)); [now injection H as <- _|].
  destruct (orderOf r s) as [[|k]|e]; try (now injection H as <- _).
  destruct (addSimplex r [] None None) as [r1 [mid|e]] eqn:E1.
  2: { injection H as <- _. eapply addSimplex_I; eauto. }
  assert (Hr1 : I r1) by (eapply addSimplex_I; eauto).
  destruct (deleteSimplex r1 s) as [r2 [[]|e]] eqn:E2.
  2: { injection H as <- _. eapply deleteSimplex_I; eauto. }
  assert (Hr2 : I r2) by (eapply deleteSimplex_I; eauto).
  set (P := if seteq pts (basisOf r1 s) && nodupb pts then pts else basisOf r1 s) in H.
  destruct (fold_left _ (seq 0 (length P)) (r2, Ok tt)) as [r3 x3] eqn:E3.
  injection H as <- _.
  eapply (fold_res_keeps I (fun r0 idx => match c_addSimplexWithBasis r0 (remove_nth idx P ++ [mid]) None None with
                                   | (r'', Raise e) => (r'', Raise e)
                                   | (r'', Ok _) => (r'', Ok tt)
                                   end)); [|exact Hr2|exact E3].
  intros r0 a0 r4 x4 Hr0 E. destruct (c_addSimplexWithBasis r0 (remove_nth a0 P ++ [mid]) None None) as [r5 [n|e]] eqn:E5;
    injection E as <- _; eapply addSimplexWithBasis_I; eauto.
Qed.

Lemma relabel_do_I rn : forall ss r st mapping r' st' x, I r ->
  relabel_do r rn st ss mapping = (r', st', x) -> I r'.
Proof.
  induction ss as [|s t IH]; intros r st mapping r' st' x Hinv H; simpl in H.
  - now injection H as <- _ _.
  - destruct (rl_apply rn st s) as [st1 s'].
    destruct (name_eqb s s'); [eapply IH; eauto|].
    destruct (relabelSimplex r s s') as [r1 [[]|e]] eqn:E.
    + eapply IH; [|exact H]. eapply relabelSimplex_I; eauto.
    + injection H as <- _ _. eapply relabelSimplex_I; eauto.
Qed.

Theorem relabel_I r rn r' st x : I r -> relabel r rn = (r', st, x) -> I r'.
Proof.
  intros Hinv H. unfold relabel in H.
  destruct (relabel_check rn rl0 (simplices r false) (simplices r false)) as [st0 [[]|e]].
  - eapply relabel_do_I; eauto.
  - now injection H as <- _ _.
Qed.

Lemma addFrom_loop_I rn : forall src hp r st ns hp' r' st' x, I r ->
  addFrom_loop hp r rn st src ns = (hp', r', st', x) -> I r'.
Proof.
  induction src as [|[s [fs h]] rest IH]; intros hp r st ns hp' r' st' x Hinv H; cbn [addFrom_loop] in H.
  - now injection H as _ <- _ _.
  - destruct (rl_apply rn st s) as [st1 t].
    destruct (negb (name_eqb s t) && containsSimplex r t); [now injection H as _ <- _ _|].
    destruct (rl_map rn st1 fs) as [st2 fs'].
    destruct (alloc r) as [r1 h'] eqn:Ea.
    assert (Hr1 : I r1) by (pose proof (alloc_I r Hinv) as Hp; now rewrite Ea in Hp).
    destruct (addSimplex r1 fs' (Some t) (Some h')) as [r2 [id|e]] eqn:E.
    + eapply IH; [|exact H]. eapply addSimplex_I; eauto.
    + injection H as _ <- _ _. eapply addSimplex_I; eauto.
Qed.

Theorem addSimplicesFrom_I hp r src rn hp' r' st x : I r ->
  addSimplicesFrom hp r src rn = (hp', r', st, x) -> I r'.
Proof. intros Hinv H. unfold addSimplicesFrom in H. eapply addFrom_loop_I; eauto. Qed.

Theorem copy_new_I hp src uid hp' r' x : copy_new hp src uid = (hp', r', x) -> I r'.
Proof.
  unfold copy_new. destruct (addSimplicesFrom hp (empty_rep uid) src RNone) as [[[hp1 r1] st] x1] eqn:E.
  intros H. injection H as _ <- _. eapply addSimplicesFrom_I; [apply I_empty | exact E].
Qed.

Theorem copy_into_I hp src target hp' r' x : I target -> copy_into hp src target = (hp', r', x) -> I r'.
Proof.
  intros Hinv. unfold copy_into. destruct (negb _); [intros H; now injection H as _ <- _|].
  destruct (addSimplicesFrom hp target src RNone) as [[[hp1 r1] st] x1] eqn:E.
  intros H. injection H as _ <- _. eapply addSimplicesFrom_I; eauto.
Qed.

End AnyInvariant.
