(* JsonProofs.v -- decoding an encoded complex gives it back (C17), at the level of the encoded
   structure (the list of {id, faces, attributes} records; the JSON text layer is Python's):
   same names, same orders, same faces, same attribute values, dictionaries of its own.  Plain Coq. *)
From Coq Require Import String ZArith Bool Arith List Lia.
From SV Require Import Names NamesFacts ListFacts Rep Fresh Complex Atomic RepInv Shapes AddEffect CopyFaithful CopyAttrs
                       Homology Filtration Gen World WorldProofs.
Import ListNotations.
Open Scope nat_scope.

Theorem decode_faithful uid : forall (js : list jsimplex) hp r hp' r',
  sinv r -> ainv uid r -> decode hp r js = (hp', r', Ok tt) ->
  sinv r' /\ ainv uid r' /\
  (forall j, In j js ->
     containsSimplex r' (j_id j) = true /\ orderOf r' (j_id j) = Ok (length (j_faces j) - 1) /\
     (forall t, In t (faces r' (j_id j)) <-> In t (j_faces j)) /\
     exists h', assoc (j_id j) (r_attr r') = Some h' /\ fst h' = uid /\ heap_get hp' h' = j_attr j) /\
  (forall s, containsSimplex r s = true ->
     containsSimplex r' s = true /\ orderOf r' s = orderOf r s /\ faces r' s = faces r s) /\
  (forall s h', assoc s (r_attr r) = Some h' -> assoc s (r_attr r') = Some h' /\ heap_get hp' h' = heap_get hp h') /\
  (forall s, containsSimplex r' s = containsSimplex r s || memn s (map j_id js)) /\
  (forall h0, fst h0 <> uid -> heap_get hp' h0 = heap_get hp h0).
Proof.
  induction js as [|j rest IH]; intros hp r hp' r' Hinv Ha H; cbn [decode] in H.
  - injection H as <- <-. split; [exact Hinv|]. split; [exact Ha|]. split; [intros j []|].
    split; [intros s Hs; auto|]. split; [auto|]. split; [intros s; simpl; now rewrite orb_false_r | auto].
  - destruct (alloc r) as [r1 h1] eqn:Ea.
    destruct (addSimplex r1 (j_faces j) (Some (j_id j)) (Some h1)) as [r2 [id|e]] eqn:E; [|discriminate].
    destruct (alloc_add_effect _ _ _ _ _ _ _ Hinv Ea E) as (Hinv2 & Ho & Hf & Hold & Hall).
    destruct (alloc_add_ainv _ _ _ _ _ _ _ _ Ha Ea E) as (Ha2 & Hh1 & A2 & Holda).
    destruct (IH _ _ _ _ Hinv2 Ha2 H) as (Hinv' & Ha' & Hrest & Hkeep & Hkeepa & Hcont & Hframe).
    split; [exact Hinv'|]. split; [exact Ha'|]. split; [|split; [|split; [|split]]].
    + intros j0 [<-|Hin]; [|now apply Hrest].
      destruct (Hkeep (j_id j)) as (C' & O' & F'); [rewrite Hall, name_eqb_refl; apply orb_true_r|].
      split; [exact C'|]. split; [now rewrite O'|]. split; [intros t; now rewrite F'|].
      destruct (Hkeepa _ _ A2) as [A' Hg]. exists h1. now rewrite Hg, heap_get_set_same.
    + intros s0 Hs0. destruct (Hold s0 Hs0) as (O2 & _ & F2 & _).
      destruct (Hkeep s0) as (C' & O' & F'); [rewrite Hall, Hs0; reflexivity|].
      split; [exact C'|]. now rewrite O', F'.
    + intros s0 h' A0. destruct (Holda s0 h' A0) as [A1 Hne]. destruct (Hkeepa s0 h' A1) as [A' Hg].
      split; [exact A'|]. rewrite Hg. now apply heap_get_set_other.
    + intros s0. rewrite Hcont, Hall. cbn [map]. unfold memn. simpl. rewrite (name_eqb_sym s0 (j_id j)). now rewrite orb_assoc.
    + exact (agree_off_trans _ _ _ _ (agree_off_set uid hp h1 (j_attr j) Hh1) Hframe).
Qed.

Theorem json_roundtrip hp0 src hp uid hp' r' : uid <> 0 ->
  decode hp (empty_rep uid) (encode_view hp0 (view_of src)) = (hp', r', Ok tt) ->
  sinv r' /\
  (forall s, containsSimplex r' s = memn s (simplices src false)) /\
  (forall s, In s (simplices src false) ->
     orderOf r' s = Ok (length (faces src s) - 1) /\ (forall t, In t (faces r' s) <-> In t (faces src s)) /\
     exists h', assoc s (r_attr r') = Some h' /\ fst h' = uid /\
       heap_get hp' h' = heap_get hp0 (match assoc s (r_attr src) with Some h => h | None => (0, 0) end)).
Proof.
  intros H0 H.
  destruct (decode_faithful uid _ _ _ _ _ (sinv_empty uid) (ainv_empty uid) H) as (Hinv & _ & Hall & _ & _ & Hcont & _).
  split; [exact Hinv|]. split.
  - intros s. rewrite Hcont. simpl. unfold encode_view, view_of. rewrite !map_map. simpl. now rewrite map_id.
  - intros s Hs.
    set (j := mkJs s (faces src s) (heap_get hp0 (match assoc s (r_attr src) with Some h => h | None => (0, 0) end))).
    assert (Hin : In j (encode_view hp0 (view_of src))).
    { unfold encode_view, view_of. rewrite map_map. apply in_map_iff. exists s. split; [reflexivity | exact Hs]. }
    destruct (Hall j Hin) as (_ & Ho & Hf & Hh). simpl in *. auto.
Qed.
