(* NamesFacts.v -- decidable equality of names, injectivity of the name generator, basic facts
   about association lists.  Plain Coq. *)
From Coq Require Import String ZArith Bool Arith List Lia DecimalString DecimalNat DecimalFacts.
From SV Require Import Names.
Import ListNotations.
Open Scope nat_scope.

Section NameInd.
  Variable P : name -> Prop.
  Hypothesis HI : forall z, P (NInt z).
  Hypothesis HS : forall s, P (NStr s).
  Hypothesis HF : forall m e, P (NFlt m e).
  Hypothesis HT : forall l, Forall P l -> P (NTup l).
  Fixpoint name_ind' (a : name) : P a :=
    match a with
    | NInt z => HI z
    | NStr s => HS s
    | NFlt m e => HF m e
    | NTup l => HT l ((fix go (l : list name) : Forall P l :=
                         match l with
                         | [] => Forall_nil _
                         | x :: xs => Forall_cons _ (name_ind' x) (go xs)
                         end) l)
    end.
End NameInd.

Lemma name_eqb_refl a : name_eqb a a = true.
Proof.
  induction a using name_ind'; simpl.
  - apply Z.eqb_refl.
  - apply String.eqb_refl.
  - now rewrite !Z.eqb_refl.
  - induction H as [|x xs Hx _ IH]; simpl; [reflexivity|]. now rewrite Hx, IH.
Qed.

Lemma name_eqb_eq a : forall b, name_eqb a b = true -> a = b.
Proof.
  induction a using name_ind'; intros [ | | | ] E; simpl in E; try discriminate.
  - apply Z.eqb_eq in E; congruence.
  - apply String.eqb_eq in E; congruence.
  - apply andb_prop in E as [E1 E2]. apply Z.eqb_eq in E1, E2. congruence.
  - f_equal. revert l0 E. induction H as [|x xs Hx _ IH]; intros [|y ys] E; try discriminate; [reflexivity|].
    apply andb_prop in E as [E1 E2]. f_equal; [apply Hx; exact E1 | apply IH; exact E2].
Qed.

Lemma name_eqb_spec a b : reflect (a = b) (name_eqb a b).
Proof.
  destruct (name_eqb a b) eqn:E; constructor.
  - now apply name_eqb_eq.
  - intros ->. rewrite name_eqb_refl in E. discriminate.
Qed.

Lemma name_eqb_neq a b : a <> b -> name_eqb a b = false.
Proof. intros H. destruct (name_eqb_spec a b); congruence. Qed.

Lemma name_eqb_sym a b : name_eqb a b = name_eqb b a.
Proof. destruct (name_eqb_spec a b), (name_eqb_spec b a); congruence. Qed.

Lemma name_eq_dec (a b : name) : {a = b} + {a <> b}.
Proof. destruct (name_eqb_spec a b); auto. Qed.

Lemma memn_In n l : memn n l = true <-> In n l.
Proof.
  unfold memn. rewrite existsb_exists. split.
  - intros [x [Hx E]]. apply name_eqb_eq in E. now subst.
  - intros H. exists n. split; auto. apply name_eqb_refl.
Qed.

Lemma memn_false n l : memn n l = false <-> ~ In n l.
Proof. rewrite <- memn_In. destruct (memn n l); split; congruence. Qed.

Lemma nodupb_NoDup l : nodupb l = true <-> NoDup l.
Proof.
  induction l as [|h t IH]; simpl.
  - split; auto. constructor.
  - rewrite andb_true_iff, negb_true_iff, memn_false, IH. split.
    + intros [H1 H2]. now constructor.
    + intros H. inversion H. auto.
Qed.

Lemma subsetn_incl a b : subsetn a b = true <-> incl a b.
Proof.
  unfold subsetn, incl. rewrite forallb_forall. split; intros H x Hx.
  - apply memn_In. now apply H.
  - apply memn_In. now apply H.
Qed.

Lemma In_filter_neq (a x : name) l : In x (filter (fun y => negb (name_eqb a y)) l) <-> In x l /\ x <> a.
Proof.
  rewrite filter_In. split; intros [H1 H2]; split; auto.
  - intros ->. rewrite name_eqb_refl in H2. discriminate.
  - destruct (name_eqb_spec a x) as [->|]; [congruence|reflexivity].
Qed.

Lemma assoc_none_notin {B} n (l : list (name * B)) : assoc n l = None <-> ~ In n (map fst l).
Proof.
  induction l as [|[k v] t IH]; simpl; [tauto|].
  destruct (name_eqb_spec n k) as [->|Hne].
  - split; [discriminate | intros H; exfalso; apply H; now left].
  - rewrite IH. split; [intros H [H1|H1]; [congruence | tauto] | tauto].
Qed.

Lemma assoc_some_in {B} n (v : B) (l : list (name * B)) : assoc n l = Some v -> In (n, v) l.
Proof.
  induction l as [|[k w] t IH]; simpl; [discriminate|].
  destruct (name_eqb_spec n k) as [->|Hne].
  - intros H. injection H as ->. now left.
  - intros H. right. auto.
Qed.

Lemma assoc_app {B} n (l1 l2 : list (name * B)) :
  assoc n (l1 ++ l2) = match assoc n l1 with Some v => Some v | None => assoc n l2 end.
Proof.
  induction l1 as [|[k v] t IH]; simpl; auto. destruct (name_eqb n k); auto.
Qed.

Lemma assoc_del_other {B} n s (l : list (name * B)) : n <> s -> assoc n (assoc_del s l) = assoc n l.
Proof.
  intros Hne. induction l as [|[k v] t IH]; simpl; auto.
  destruct (name_eqb_spec s k) as [->|Hsk].
  - rewrite (name_eqb_neq n k) by auto. reflexivity.
  - simpl. destruct (name_eqb n k); auto.
Qed.

Lemma assoc_del_same {B} s (l : list (name * B)) : NoDup (map fst l) -> assoc s (assoc_del s l) = None.
Proof.
  induction l as [|[k v] t IH]; simpl; auto. intros H. inversion H as [|? ? Hnin Hnd]; subst.
  destruct (name_eqb_spec s k) as [->|Hsk].
  - now apply assoc_none_notin.
  - simpl. rewrite (name_eqb_neq s k) by auto. auto.
Qed.

Lemma in_map_fst_assoc_del {B} s x (l : list (name * B)) : In x (map fst (assoc_del s l)) -> In x (map fst l).
Proof.
  induction l as [|[k v] t IH]; simpl; auto. destruct (name_eqb s k); simpl; [tauto|]. intros [H|H]; auto.
Qed.

Lemma in_assoc_del_other {B} s t (l : list (name * B)) : t <> s -> In t (map fst l) -> In t (map fst (assoc_del s l)).
Proof.
  intros Hne. induction l as [|[k v] r IH]; simpl; auto.
  destruct (name_eqb_spec s k) as [->|Hsk]; simpl; intros [H|H]; auto. congruence.
Qed.

Lemma nodup_assoc_del {B} s (l : list (name * B)) : NoDup (map fst l) -> NoDup (map fst (assoc_del s l)).
Proof.
  induction l as [|[k v] t IH]; simpl; auto. intros H. inversion H as [|? ? Hk Ht]; subst.
  destruct (name_eqb s k); simpl; auto. constructor; auto. intros Hin. apply Hk. eapply in_map_fst_assoc_del; eauto.
Qed.

Lemma assoc_set_same {B} n (b : B) l : assoc n (assoc_set n b l) = Some b.
Proof.
  induction l as [|[k v] t IH]; simpl.
  - now rewrite name_eqb_refl.
  - destruct (name_eqb_spec n k) as [->|Hne]; simpl.
    + now rewrite name_eqb_refl.
    + rewrite (name_eqb_neq n k) by auto. exact IH.
Qed.

Lemma assoc_set_other {B} n s (b : B) l : n <> s -> assoc n (assoc_set s b l) = assoc n l.
Proof.
  intros Hne. induction l as [|[k v] t IH]; simpl.
  - now rewrite (name_eqb_neq n s).
  - destruct (name_eqb_spec s k) as [->|Hsk]; simpl.
    + now rewrite (name_eqb_neq n k).
    + destruct (name_eqb n k); auto.
Qed.

Lemma map_fst_assoc_set {B} s (b : B) l : In s (map fst l) -> map fst (assoc_set s b l) = map fst l.
Proof.
  induction l as [|[k v] t IH]; simpl; [tauto|].
  intros H. destruct (name_eqb_spec s k) as [->|Hsk]; simpl; auto.
  f_equal. apply IH. destruct H; congruence.
Qed.

Lemma map_fst_assoc_del {B} s (l : list (name * B)) :
  map fst (assoc_del s l) = remove name_eq_dec s (map fst l) \/ True.
Proof. now right. Qed.

Lemma unorm_nonnil d : Decimal.unorm d <> Decimal.Nil.
Proof. unfold Decimal.unorm. destruct (Decimal.nzhead d); congruence. Qed.
Lemma to_uint_nonnil n : Nat.to_uint n <> Decimal.Nil.
Proof. rewrite <- (Unsigned.of_to n) at 1. rewrite Unsigned.to_of. apply unorm_nonnil. Qed.
Lemma dec_inj n m : dec n = dec m -> n = m.
Proof.
  unfold dec; intros H. apply (f_equal NilZero.uint_of_string) in H.
  rewrite !NilZero.usu in H by apply to_uint_nonnil.
  injection H as H. now apply Unsigned.to_uint_inj.
Qed.
Lemma append_inj_r (p a b : string) : (p ++ a = p ++ b)%string -> a = b.
Proof. induction p; simpl; intros H; [exact H|]. injection H as H. auto. Qed.
Lemma auto_inj d i j : auto d i = auto d j -> i = j.
Proof.
  unfold auto; intros H. injection H as H.
  apply append_inj_r in H. apply (append_inj_r "d") in H. now apply dec_inj.
Qed.

Lemma NoDup_app_snoc {A} (l : list A) x : NoDup l -> ~ In x l -> NoDup (l ++ [x]).
Proof.
  induction l as [|h t IH]; simpl; intros Hnd Hx.
  - constructor; [simpl; tauto | constructor].
  - inversion Hnd as [|? ? Hh Ht]; subst. constructor.
    + rewrite in_app_iff. simpl. intros [H|[H|[]]]; [tauto | subst; tauto].
    + apply IH; tauto.
Qed.

Lemma NoDup_app' {A} (l1 l2 : list A) :
  NoDup l1 -> NoDup l2 -> (forall x, In x l1 -> In x l2 -> False) -> NoDup (l1 ++ l2).
Proof.
  induction l1 as [|h t IH]; simpl; intros H1 H2 H; auto.
  inversion H1 as [|? ? Hh Ht]; subst. constructor.
  - rewrite in_app_iff. intros [Hc|Hc]; [tauto | apply (H h); auto].
  - apply IH; auto. intros x Hx. apply H. now right.
Qed.

Lemma assoc_set_spec {B} s (b : B) m x : assoc x (assoc_set s b m) = if name_eqb x s then Some b else assoc x m.
Proof.
  destruct (name_eqb_spec x s) as [->|Hne]; [apply assoc_set_same|now apply assoc_set_other].
Qed.

Lemma assoc_snoc_other {B} t s (v : B) l : t <> s -> assoc t (l ++ [(s, v)]) = assoc t l.
Proof. intros Hne. rewrite assoc_app. simpl. rewrite (name_eqb_neq t s Hne). now destruct (assoc t l). Qed.

Lemma memn_snoc_other done s t : t <> s -> memn t (done ++ [s]) = memn t done.
Proof. intros Hne. unfold memn. rewrite existsb_app. simpl. rewrite (name_eqb_neq t s) by exact Hne. now rewrite !orb_false_r. Qed.

Lemma in_assoc_set {B} s (b : B) l x : In x (assoc_set s b l) -> In x l \/ x = (s, b).
Proof.
  induction l as [|[k v] t IH]; simpl.
  - intros [<-|[]]. now right.
  - destruct (name_eqb s k) eqn:E; simpl.
    + intros [<-|H]; [right; apply name_eqb_eq in E; now subst|left; now right].
    + intros [<-|H]; [left; now left|]. destruct (IH H) as [H1|H1]; [left; now right|now right].
Qed.
