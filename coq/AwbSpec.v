(* AwbSpec.v -- add by basis (C02): on a complex with the vertex-set reading (VInv.v),
   addSimplexWithBasis(bs) leaves a simplex whose basis is bs, keeps the reading, touches no simplex
   that was there, and whatever it adds has its basis inside bs (and was missing before).  Plain Coq. *)
From Coq Require Import String ZArith Bool Arith List Lia.
From SV Require Import Names NamesFacts ListFacts Rep Fresh Complex Atomic RepInv Reach Shapes Incidence AddEffect
                       Closed ClosedReach BasisInv CopyFaithful.
From SV Require Import FoldRes Duality AddBasis VInv.
Import ListNotations.
Open Scope nat_scope.

Lemma seteq_sameset a b : seteq a b = true <-> sameset a b.
Proof.
  unfold seteq. rewrite andb_true_iff, !subsetn_incl. split.
  - intros [H1 H2] x. split; [apply H1 | apply H2].
  - intros H. split; intros x Hx; now apply H.
Qed.

Lemma drop_one_spec {A} (l : list A) pfs : In pfs (drop_one l) <-> exists l1 x l2, l = l1 ++ x :: l2 /\ pfs = l1 ++ l2.
Proof.
  revert pfs. induction l as [|a l IH]; intros pfs; simpl.
  - split; [tauto|]. intros (l1 & x & l2 & H & _). destruct l1; discriminate.
  - rewrite in_app_iff, in_map_iff. split.
    + intros [(p0 & <- & Hp0)|[<-|[]]].
      * apply IH in Hp0. destruct Hp0 as (l1 & x & l2 & -> & ->). exists (a :: l1), x, l2. auto.
      * exists [], a, l. auto.
    + intros (l1 & x & l2 & H & ->). destruct l1 as [|b l1]; simpl in H; injection H as <- ->.
      * right. now left.
      * left. exists (l1 ++ l2). split; [reflexivity|]. apply IH. eauto.
Qed.

Lemma length_drop_one {A} (l : list A) : length (drop_one l) = length l.
Proof. induction l as [|a l IH]; simpl; [reflexivity|]. rewrite app_length, map_length, IH. simpl. lia. Qed.

Definition pts (r : rep) (bs : list name) : Prop := forall b, In b bs -> exists i, assoc b (r_simp r) = Some (0, i).

Lemma isBasis_true_iff r bs : c_isBasis r bs false = Ok true <-> pts r bs.
Proof.
  unfold c_isBasis, pts. induction bs as [|b t IH]; simpl.
  - split; [intros _ b [] | reflexivity].
  - unfold containsSimplex, orderOf. destruct (assoc b (r_simp r)) as [[[|k] i]|] eqn:Ab.
    + rewrite IH. split.
      * intros H b0 [<-|Hb0]; eauto.
      * intros H b0 Hb0. apply H. now right.
    + split; [discriminate|]. intros H. destruct (H b (or_introl eq_refl)) as (i0 & Hi0). congruence.
    + split; [discriminate|]. intros H. destruct (H b (or_introl eq_refl)) as (i0 & Hi0). congruence.
Qed.

Lemma isBasis_no_raise r bs : exists b, c_isBasis r bs false = Ok b.
Proof.
  unfold c_isBasis. induction bs as [|b t IH]; simpl; [eauto|].
  unfold containsSimplex, orderOf. destruct (assoc b (r_simp r)) as [[[|k] i]|]; eauto.
Qed.

Lemma lookup_some r bs s : vinv r -> c_simplexWithBasis r bs false = Ok (Some s) ->
  containsSimplex r s = true /\ sameset (basisOf r s) bs.
Proof.
  intros Hv H. unfold c_simplexWithBasis, simplexWithBasis in H. fold (c_isBasis r bs false) in H.
  destruct (c_isBasis r bs false) as [[|]|e] eqn:Eb; try discriminate.
  apply isBasis_true_iff in Eb.
  destruct bs as [|b [|b2 t]]; [discriminate| |].
  - injection H as <-. destruct (Eb b (or_introl eq_refl)) as (i & Ab). split; [exact (assoc_contains r b _ _ Ab)|].
    rewrite (point_basis r b i (vinv_bcinv r Hv) Ab). apply sameset_refl.
  - cbv zeta in H. destruct (r_nord r <=? length (b :: b2 :: t) - 1); [discriminate|].
    destruct (find _ _) as [s0|] eqn:Ef; [|discriminate]. injection H as <-.
    apply find_some in Ef. destruct Ef as [Hin Hse]. apply seteq_sameset in Hse. split.
    + apply contains_iff_listed; [exact (vinv_pinv r Hv)|]. eauto.
    + now apply sameset_sym.
Qed.

Lemma lookup_none r bs : vinv r -> pts r bs -> NoDup bs -> bs <> [] -> c_simplexWithBasis r bs false = Ok None ->
  2 <= length bs /\ forall t, containsSimplex r t = true -> ~ sameset (basisOf r t) bs.
Proof.
  intros Hv Hp Hnd Hne H. unfold c_simplexWithBasis, simplexWithBasis in H. fold (c_isBasis r bs false) in H.
  rewrite (proj2 (isBasis_true_iff r bs) Hp) in H.
  pose proof (vinv_pinv r Hv) as P.
  destruct bs as [|b [|b2 t]]; [contradiction | discriminate |].
  split; [simpl; lia|]. cbv zeta in H. intros u Hu Hss.
  apply containsSimplex_assoc in Hu. destruct Hu as (ku & ju & Au).
  assert (Hlen : length (basisOf r u) = length (b :: b2 :: t)).
  { apply NoDup_same_length; [apply basis_nodup; exact P | exact Hnd | exact Hss]. }
  rewrite (v_card r Hv u ku ju Au) in Hlen.
  assert (Hin : In u (simplicesOfOrder r (length (b :: b2 :: t) - 1))).
  { apply (listed_assoc r u _ P). exists ju. rewrite Au. repeat f_equal. lia. }
  destruct (r_nord r <=? length (b :: b2 :: t) - 1) eqn:En.
  { unfold simplicesOfOrder in Hin. apply Nat.leb_le, Nat.ltb_ge in En. rewrite En in Hin. destruct Hin. }
  destruct (find _ _) as [s0|] eqn:Ef; [discriminate|].
  pose proof (find_none _ _ Ef u Hin) as Hf. simpl in Hf.
  assert (seteq (b :: b2 :: t) (basisOf r u) = true) by (now apply seteq_sameset, sameset_sym). congruence.
Qed.

(* r' has every simplex of r, with the order, faces and basis it has in r: the half that ext and grows share *)
Definition keeps (r r' : rep) : Prop := forall t, containsSimplex r t = true ->
  containsSimplex r' t = true /\ orderOf r' t = orderOf r t /\ faces r' t = faces r t /\ basisOf r' t = basisOf r t.

Lemma keeps_trans a b c : keeps a b -> keeps b c -> keeps a c.
Proof.
  intros O1 O2 t Ht. destruct (O1 t Ht) as (C1 & Or1 & F1 & B1). destruct (O2 t C1) as (C2 & Or2 & F2 & B2).
  split; [exact C2|]. repeat split; congruence.
Qed.
Lemma keeps_same_obs r r' : same_obs r r' -> keeps r r'.
Proof.
  intros Hs t H. destruct (same_obs_queries r r' Hs) as (Qo & _ & Qf & _ & Qb & Qc & _). rewrite Qc, Qo, Qf, Qb. auto.
Qed.
Lemma keeps_add r fs id attr r' n : sinv r -> addSimplex r fs id attr = (r', Ok n) ->
  keeps r r' /\ forall t, containsSimplex r' t = true -> containsSimplex r t = true \/ t = n.
Proof.
  intros HS H. destruct (addSimplex_effect r fs id attr r' n HS H) as (_ & _ & _ & _ & Hold & Hall). split.
  - intros t Ht. destruct (Hold t Ht) as (O & _ & F & B). split; [rewrite Hall, Ht; reflexivity | auto].
  - intros t Ht. rewrite Hall in Ht. apply orb_prop in Ht. destruct Ht as [Ht|Ht]; [now left | right; now apply name_eqb_eq].
Qed.
Lemma pts_keeps r r' l : keeps r r' -> pts r l -> pts r' l.
Proof.
  intros O Hp b Hb. destruct (Hp b Hb) as (i & Ab).
  destruct (O b (assoc_contains r b _ _ Ab)) as (C' & Or & _). unfold orderOf in Or. rewrite Ab in Or.
  apply containsSimplex_assoc in C'. destruct C' as (k & i' & Ab'). rewrite Ab' in Or. injection Or as ->. eauto.
Qed.

(* what a call of _addSimplexWithBasis on bs may do to r: keep it and add simplices of order >= 1 whose bases lie
   inside bs and have at most m points; the bound is what shows that none of the additions spans bs itself *)
Record ext (bs : list name) (m : nat) (r r' : rep) : Prop := {
  x_old : forall t, containsSimplex r t = true ->
          containsSimplex r' t = true /\ orderOf r' t = orderOf r t /\ faces r' t = faces r t /\ basisOf r' t = basisOf r t;
  x_new : forall t, containsSimplex r' t = true ->
          containsSimplex r t = true \/
          (incl (basisOf r' t) bs /\ length (basisOf r' t) <= m /\ exists k, orderOf r' t = Ok (S k)) }.

Lemma ext_refl bs m r : ext bs m r r.
Proof. constructor; auto. Qed.

Lemma ext_trans bs m a b c : ext bs m a b -> ext bs m b c -> ext bs m a c.
Proof.
  intros [O1 N1] [O2 N2]. constructor; [exact (keeps_trans a b c O1 O2)|].
  intros t Ht. destruct (N2 t Ht) as [Hb|Hn]; [|now right].
  destruct (N1 t Hb) as [Ha|(Hi & Hl & k & Hk)]; [now left|]. right.
  destruct (O2 t Hb) as (_ & Or2 & _ & B2). rewrite B2. split; [exact Hi|]. split; [exact Hl|]. exists k. congruence.
Qed.

Lemma ext_mono bs1 m1 bs2 m2 r r' : ext bs1 m1 r r' -> incl bs1 bs2 -> m1 <= m2 -> ext bs2 m2 r r'.
Proof.
  intros [O N] Hi Hm. constructor; [exact O|]. intros t Ht. destruct (N t Ht) as [H|(H1 & H2 & H3)]; [now left|].
  right. split; [intros x Hx; apply Hi, H1, Hx|]. split; [lia | exact H3].
Qed.

Lemma ext_same_obs bs m r r' : same_obs r r' -> ext bs m r r'.
Proof.
  intros Hs. constructor; [exact (keeps_same_obs r r' Hs)|]. intros t H. left.
  destruct (same_obs_queries r r' Hs) as (_ & _ & _ & _ & _ & Qc & _). now rewrite <- Qc.
Qed.

Lemma ext_add bs m r fs id attr r' n : sinv r -> 2 <= length fs ->
  addSimplex r fs id attr = (r', Ok n) -> incl (basisOf r' n) bs -> length (basisOf r' n) <= m -> ext bs m r r'.
Proof.
  intros HS Hl H Hi Hm. destruct (keeps_add r fs id attr r' n HS H) as [O N].
  destruct (addSimplex_effect r fs id attr r' n HS H) as (_ & _ & Ho & _).
  constructor; [exact O|]. intros t Ht. destruct (N t Ht) as [Hold| ->]; [now left|].
  right. split; [exact Hi|]. split; [exact Hm|]. exists (length fs - 2). rewrite Ho. f_equal. lia.
Qed.

(* additions bounded below the size of bs leave bs unspanned: none of the old simplices spanned it, and the new ones are smaller *)
Lemma ext_no_span bs m r st : ext bs m r st -> vinv st -> NoDup bs -> m < length bs ->
  (forall t, containsSimplex r t = true -> ~ sameset (basisOf r t) bs) ->
  forall t, containsSimplex st t = true -> ~ sameset (basisOf st t) bs.
Proof.
  intros Hx Hv Nd Hm Hno t Ht Hss. destruct (x_new _ _ _ _ Hx t Ht) as [Hold|(_ & Hl & _)].
  - destruct (x_old _ _ _ _ Hx t Hold) as (_ & _ & _ & Bt). rewrite Bt in Hss. exact (Hno t Hold Hss).
  - pose proof (NoDup_same_length _ _ (basis_nodup st t (vinv_pinv st Hv)) Nd Hss). lia.
Qed.

Lemma facet_props (bs pfs : list name) : NoDup bs -> In pfs (drop_one bs) ->
  NoDup pfs /\ incl pfs bs /\ S (length pfs) = length bs.
Proof.
  intros Hnd H. apply drop_one_spec in H. destruct H as (l1 & x & l2 & -> & ->).
  split; [exact (NoDup_remove_1 l1 l2 x Hnd)|]. split; [|rewrite !app_length; simpl; lia].
  intros y Hy. apply in_app_or in Hy. apply in_or_app. destruct Hy; [now left | right; now right].
Qed.

Lemma facets_fit (bs : list name) : NoDup bs -> 2 <= length bs -> forall pfs, In pfs (drop_one bs) ->
  NoDup pfs /\ pfs <> [] /\ incl pfs bs /\ length pfs <= length bs - 1.
Proof.
  intros Hnd Hl pfs Hin. destruct (facet_props bs pfs Hnd Hin) as (H1 & H2 & H3). split; [exact H1|]. split; [|split; [exact H2 | lia]].
  intros ->. simpl in H3. lia.
Qed.

Lemma facets_cover (bs : list name) p : NoDup bs -> 2 <= length bs -> In p bs -> exists pfs, In pfs (drop_one bs) /\ In p pfs.
Proof.
  intros Hnd Hl Hp.
  (* drop some element other than p *)
  assert (Hq : exists q, In q bs /\ q <> p).
  { destruct bs as [|a [|b t]]; simpl in Hl; try lia. inversion Hnd as [|x xs Hx _]; subst.
    destruct (name_eqb_spec a p) as [->|Hne]; [exists b; split; [right; now left | intros ->; apply Hx; now left] | exists a; split; [now left | exact Hne]]. }
  destruct Hq as (q & Hq & Hqp). apply in_split in Hq. destruct Hq as (l1 & l2 & ->).
  exists (l1 ++ l2). split; [apply drop_one_spec; eauto|].
  apply in_app_or in Hp. apply in_or_app. destruct Hp as [Hp|[Hp|Hp]]; [now left | congruence | now right].
Qed.

(* fs names the vertex sets of L one by one: the i-th name is a simplex of r whose basis is the i-th set *)
Definition named (r : rep) (fs : list name) (L : list (list name)) : Prop :=
  Forall2 (fun s pfs => containsSimplex r s = true /\ sameset (basisOf r s) pfs) fs L.

Lemma named_keeps r r' fs L : keeps r r' -> named r fs L -> named r' fs L.
Proof.
  intros O H. induction H as [|s pfs fs L [Hc Hs] _ IH]; constructor; [|exact IH].
  destruct (O s Hc) as (C' & _ & _ & B'). split; [exact C'|]. now rewrite B'.
Qed.

Lemma Forall2_map_r {A B C} (R : A -> C -> Prop) (f : B -> C) l m :
  Forall2 R l (map f m) -> Forall2 (fun a b => R a (f b)) l m.
Proof. revert l. induction m as [|b m IH]; intros l H; inversion H; subst; constructor; auto. Qed.

(* distinct facets have distinct names: of the facets of a :: t, only the last lacks a *)
Lemma named_nodup_gen (B : name -> list name) : forall bs pre fs, NoDup (pre ++ bs) ->
  Forall2 (fun s pfs => sameset (B s) (pre ++ pfs)) fs (drop_one bs) -> NoDup fs.
Proof.
  induction bs as [|a t IH]; intros pre fs Hnd H; simpl in H; [inversion H; constructor|].
  apply Forall2_app_inv_r in H. destruct H as (fs1 & fs2 & H1 & H2 & ->).
  inversion H2 as [|s ? ? ? Hs H3]; subst. inversion H3; subst. apply Forall2_map_r in H1.
  apply NoDup_app_snoc.
  - apply (IH (pre ++ [a])); [now rewrite <- app_assoc|].
    eapply Forall2_impl; [|exact H1]. intros s0 p0 Hs0. now rewrite <- app_assoc.
  - intros Hin. destruct (Forall2_in_l _ _ _ s H1 Hin) as (p0 & _ & Hp0).
    apply (NoDup_remove_2 pre t a Hnd), Hs, Hp0, in_or_app. right. now left.
Qed.

Lemma named_nodup r bs fs : NoDup bs -> named r fs (drop_one bs) -> NoDup fs.
Proof.
  intros Hnd H. apply (named_nodup_gen (basisOf r) bs [] fs Hnd). eapply Forall2_impl; [|exact H]. now intros s p [_ Hs].
Qed.

(* the points of the faces named for the facets of bs are the points of bs *)
Lemma named_span r bs fs : NoDup bs -> 2 <= length bs -> named r fs (drop_one bs) ->
  forall p, (exists f, In f fs /\ In p (basisOf r f)) <-> In p bs.
Proof.
  intros Hnd Hl Hnm p. split.
  - intros (f & Hf & Hp). destruct (Forall2_in_l _ _ _ f Hnm Hf) as (pfs & Hpfs & _ & Hs).
    destruct (facet_props bs pfs Hnd Hpfs) as (_ & Hi & _). apply Hi. now apply Hs.
  - intros Hp. destruct (facets_cover bs p Hnd Hl Hp) as (pfs & Hpfs & Hpp).
    destruct (Forall2_in_r _ _ _ pfs Hnm Hpfs) as (f & Hf & _ & Hs). exists f. split; [exact Hf | now apply Hs].
Qed.

Lemma final_add r bs fs nm at' r' s : vinv r -> NoDup bs -> 2 <= length bs ->
  named r fs (drop_one bs) -> (forall t, containsSimplex r t = true -> ~ sameset (basisOf r t) bs) ->
  addSimplex r fs nm at' = (r', Ok s) ->
  vinv r' /\ containsSimplex r' s = true /\ sameset (basisOf r' s) bs /\ ext bs (length bs) r r'.
Proof.
  intros Hv Hnd Hl Hnm Hno H. pose proof (vinv_sinv r Hv) as HS.
  assert (Hlen : length fs = length bs) by (rewrite <- (length_drop_one bs); exact (Forall2_len _ _ _ Hnm)).
  assert (Hspan : forall B, span r fs B -> sameset B bs) by (intros B [_ HB2] p; rewrite HB2; now apply named_span).
  assert (Hg : good_faces r fs).
  { right. intros B HB. pose proof (Hspan B HB) as Hss. split.
    - rewrite Hlen. apply NoDup_same_length; [exact (proj1 HB) | exact Hnd | exact Hss].
    - intros t Ht Hst. exact (Hno t Ht (sameset_trans _ _ _ Hst Hss)). }
  assert (Hv' : vinv r') by (eapply addSimplex_vinv; eauto).
  pose proof (basis_nodup r' s (vinv_pinv r' Hv')) as Hnb.
  destruct (addSimplex_new_basis r fs nm at' r' s HS H) as [_ [[-> _]|[_ Hsp]]]; [simpl in Hlen; lia|].
  pose proof (Hspan _ (conj Hnb Hsp)) as Hb.
  split; [exact Hv'|]. split; [|split; [exact Hb|]].
  - destruct (addSimplex_effect r fs nm at' r' s HS H) as (_ & _ & _ & _ & _ & Hall). rewrite Hall, name_eqb_refl. apply orb_true_r.
  - apply (ext_add bs (length bs) r fs nm at' r' s HS ltac:(lia) H).
    + intros x Hx. now apply Hb.
    + rewrite (NoDup_same_length _ _ Hnb Hnd Hb). lia.
Qed.

Definition awb_ok (fuel : nat) : Prop :=
  forall r id attr k bs r' s, vinv r -> NoDup bs -> bs <> [] -> pts r bs ->
  c_awb fuel r id attr k bs = (r', Ok s) ->
  vinv r' /\ containsSimplex r' s = true /\ sameset (basisOf r' s) bs /\ ext bs (length bs) r r'.

(* what the loop over the facets does with one of them *)
Definition awb_face (f : nat) (id : name) (attr : handle) (k : nat) (st : rep) (fs : list name) (pfs : list name) :=
  match c_awb f st id attr k pfs with
  | (st', Ok s) => (st', Ok (fs ++ [s]))
  | (st', Raise e) => (st', Raise e)
  end.

Lemma fold_spec f id attr k bs m r : awb_ok f -> vinv r -> pts r bs -> forall L st fs,
  (forall pfs, In pfs L -> NoDup pfs /\ pfs <> [] /\ incl pfs bs /\ length pfs <= m) ->
  fold_left (lift_res (awb_face f id attr k)) L (r, Ok []) = (st, Ok fs) ->
  vinv st /\ ext bs m r st /\ named st fs L.
Proof.
  intros Hf Hv Hp L st fs HL.
  apply (fold_res_inv (awb_face f id attr k) (fun done st fs => vinv st /\ ext bs m r st /\ named st fs done) L) with (done := []).
  2: { split; [exact Hv|]. split; [apply ext_refl | constructor]. }
  intros done st1 acc pfs st2 fs2 Hin (Hv1 & Hx1 & Hn1) E. unfold awb_face in E.
  destruct (c_awb f st1 id attr k pfs) as [st2' [s|e]] eqn:Ec; [|discriminate]. injection E as <- <-.
  destruct (HL pfs Hin) as (Hnd & Hne & Hi & Hm).
  assert (Hpp : pts st1 pfs) by (intros b Hb; apply (pts_keeps r st1 bs (x_old _ _ _ _ Hx1) Hp), Hi, Hb).
  destruct (Hf st1 id attr k pfs st2' s Hv1 Hnd Hne Hpp Ec) as (Hv2 & Hc2 & Hs2 & Hx2).
  assert (Hx2' : ext bs m st1 st2') by (apply (ext_mono pfs (length pfs) bs m); auto).
  split; [exact Hv2|]. split; [exact (ext_trans bs m r st1 st2' Hx1 Hx2')|].
  apply Forall2_app; [exact (named_keeps st1 st2' _ _ (x_old _ _ _ _ Hx2') Hn1) | constructor; [split; assumption | constructor]].
Qed.

Theorem awb_spec fuel : awb_ok fuel.
Proof.
  induction fuel as [|f IH]; intros r id attr k bs r' s Hv Hnd Hne Hp H; [discriminate|].
  unfold c_awb in H. cbn [awb] in H.
  change (simplexWithBasis rep (fun r0 => r0) containsSimplex orderOf r bs false) with (c_simplexWithBasis r bs false) in H.
  destruct (c_simplexWithBasis r bs false) as [[q|]|e] eqn:El; [| |discriminate].
  - 
    injection H as <- <-. destruct (lookup_some r bs q Hv El) as [Hc Hs].
    split; [exact Hv|]. split; [exact Hc|]. split; [exact Hs | apply ext_refl].
  - destruct (lookup_none r bs Hv Hp Hnd Hne El) as [Hl Hno].
    change (fold_left _ (drop_one bs) (r, Ok [])) with (fold_left (lift_res (awb_face f id attr k)) (drop_one bs) (r, Ok [])) in H.
    destruct (fold_left (lift_res (awb_face f id attr k)) (drop_one bs) (r, Ok [])) as [st1 [fs|e]] eqn:Ef; [|discriminate].
    pose proof (facets_fit bs Hnd Hl) as HL.
    destruct (fold_spec f id attr k bs (length bs - 1) r IH Hv Hp (drop_one bs) st1 fs HL Ef) as (Hv1 & Hx1 & Hn1).
    assert (Hndf : NoDup fs) by (apply (named_nodup st1 bs fs Hnd Hn1)).
    rewrite (dedupn_nodup_id fs Hndf) in H.
    assert (Hfin : forall st1' nm at', same_obs st1 st1' -> addSimplex st1' fs nm at' = (r', Ok s) ->
              vinv r' /\ containsSimplex r' s = true /\ sameset (basisOf r' s) bs /\ ext bs (length bs) r r').
    { intros st1' nm at' Hso Ha.
      pose proof (ext_trans _ _ _ _ _ Hx1 (ext_same_obs bs (length bs - 1) st1 st1' Hso)) as Hx1'.
      pose proof (vinv_same_obs st1 st1' Hso Hv1) as Hv1'.
      pose proof (ext_no_span bs _ r st1' Hx1' Hv1' Hnd ltac:(lia) Hno) as Hno1.
      destruct (final_add st1' bs fs nm at' r' s Hv1' Hnd Hl
                  (named_keeps st1 st1' fs _ (keeps_same_obs st1 st1' Hso) Hn1) Hno1 Ha) as (A & B & C & D).
      split; [exact A|]. split; [exact B|]. split; [exact C|].
      apply (ext_trans bs (length bs) r st1' r'); [|exact D].
      apply (ext_mono bs (length bs - 1) bs (length bs)); [exact Hx1' | apply incl_refl | lia]. }
    destruct (k =? length bs - 1).
    + apply (Hfin st1 (Some id) (Some attr) (same_obs_refl st1) H).
    + destruct (newSimplex_fresh st1 (length bs - 1)) as (i1 & n1 & En1 & _).
      rewrite En1 in H. destruct (name_eqb n1 id).
      * destruct (newSimplex_fresh (set_seq st1 (S i1)) (length bs - 1)) as (i2 & n2 & En2 & _).
        rewrite En2 in H.
        apply (Hfin (set_seq (set_seq st1 (S i1)) (S i2)) (Some n2) None); [|exact H].
        eapply same_obs_trans; apply same_obs_set_seq.
      * apply (Hfin (set_seq st1 (S i1)) (Some n1) None); [apply same_obs_set_seq | exact H].
Qed.

(* the same without bound and order, as ensureBasis needs it: what it adds are points *)
Record grows (bs : list name) (r r' : rep) : Prop := {
  g_old : forall t, containsSimplex r t = true ->
          containsSimplex r' t = true /\ orderOf r' t = orderOf r t /\ faces r' t = faces r t /\ basisOf r' t = basisOf r t;
  g_new : forall t, containsSimplex r' t = true -> containsSimplex r t = true \/ incl (basisOf r' t) bs }.

Lemma grows_refl bs r : grows bs r r. Proof. constructor; auto. Qed.
Lemma grows_trans bs a b c : grows bs a b -> grows bs b c -> grows bs a c.
Proof.
  intros [O1 N1] [O2 N2]. constructor; [exact (keeps_trans a b c O1 O2)|].
  intros t Ht. destruct (N2 t Ht) as [Hb|Hn]; [|now right].
  destruct (N1 t Hb) as [Ha|Hi]; [now left|]. right. destruct (O2 t Hb) as (_ & _ & _ & B2). now rewrite B2.
Qed.
Lemma grows_mono bs1 bs2 r r' : grows bs1 r r' -> incl bs1 bs2 -> grows bs2 r r'.
Proof.
  intros [O N] Hi. constructor; [exact O|]. intros t Ht. destruct (N t Ht) as [H|H]; [now left|].
  right. intros x Hx. apply Hi, H, Hx.
Qed.
Lemma grows_ext bs m r r' : ext bs m r r' -> grows bs r r'.
Proof. intros [O N]. constructor; [exact O|]. intros t Ht. destruct (N t Ht) as [H|(H & _)]; auto. Qed.
Lemma grows_same_obs bs r r' : same_obs r r' -> grows bs r r'.
Proof. intros Hs. exact (grows_ext bs 0 r r' (ext_same_obs bs 0 r r' Hs)). Qed.

Lemma add_point_spec r id attr r1 p : vinv r -> addSimplex r [] id attr = (r1, Ok p) ->
  vinv r1 /\ containsSimplex r p = false /\ containsSimplex r1 p = true /\ basisOf r1 p = [p] /\ grows [p] r r1.
Proof.
  intros Hv E. pose proof (vinv_sinv r Hv) as HS.
  destruct (addSimplex_effect r [] id attr r1 p HS E) as (Hn & _ & _ & _ & _ & Hall).
  destruct (addSimplex_new_basis r [] id attr r1 p HS E) as [_ [[_ Hb1]|[Hl _]]]; [|simpl in Hl; lia].
  destruct (keeps_add r [] id attr r1 p HS E) as [O N].
  split; [eapply addSimplex_vinv; [exact Hv | now left | exact E]|]. split; [exact Hn|].
  split; [rewrite Hall, name_eqb_refl; apply orb_true_r|]. split; [exact Hb1|].
  constructor; [exact O|]. intros t Ht. destruct (N t Ht) as [Hold| ->]; [now left|]. right. rewrite Hb1. apply incl_refl.
Qed.

Lemma ensure_add_spec bs h : forall l r r', vinv r -> incl l bs ->
  ensure_add rep containsSimplex orderOf addSimplex r l (Some h) = (r', Ok tt) ->
  vinv r' /\ pts r' l /\ grows bs r r'.
Proof.
  induction l as [|b t IH]; intros r r' Hv Hi H; simpl in H.
  - injection H as <-. split; [exact Hv|]. split; [intros b []|apply grows_refl].
  - (* after the first step b is a point, whether it was one or has been made one *)
    assert (Hb : exists r1, vinv r1 /\ grows bs r r1 /\ pts r1 [b] /\
                   ensure_add rep containsSimplex orderOf addSimplex r1 t (Some h) = (r', Ok tt)).
    { destruct (containsSimplex r b) eqn:Cb.
      - exists r. apply containsSimplex_assoc in Cb. destruct Cb as (k & i & Ab). unfold orderOf in H. rewrite Ab in H.
        destruct k; [|discriminate]. split; [exact Hv|]. split; [apply grows_refl|]. split; [|exact H]. intros b0 [<-|[]]. eauto.
      - destruct (addSimplex r [] (Some b) (Some h)) as [r1 [n|e]] eqn:E; [|discriminate]. exists r1.
        destruct (addSimplex_given r [] b h r1 n E) as (-> & _ & _).
        destruct (add_point_spec r (Some b) (Some h) r1 b Hv E) as (Hv1 & _ & _ & Hb1 & Hg1).
        split; [exact Hv1|]. split; [|split; [|exact H]].
        + apply (grows_mono [b]); [exact Hg1|]. intros x [<-|[]]. apply Hi. now left.
        + intros b0 [<-|[]]. apply (basis_in_points r1 b b (vinv_pinv r1 Hv1)). rewrite Hb1. now left. }
    destruct Hb as (r1 & Hv1 & Hg1 & Hp1 & H1).
    assert (Hit : incl t bs) by (intros x Hx; apply Hi; now right).
    destruct (IH r1 r' Hv1 Hit H1) as (Hv' & Hp' & Hg). split; [exact Hv'|]. split; [|exact (grows_trans bs r r1 r' Hg1 Hg)].
    intros b0 [<-|Hb0]; [|now apply Hp']. apply (pts_keeps r1 r' [b] (g_old _ _ _ Hg) Hp1). now left.
Qed.

(* the attribute dictionary of the new simplex is the given one or a fresh one; allocating changes nothing observable *)
Lemma attr_or_alloc r (attr : option handle) :
  exists st h, (match attr with Some h => (r, h) | None => let '(r'0, h) := alloc r in (r'0, h) end) = (st, h) /\ same_obs r st.
Proof.
  destruct attr as [h0|]; [exists r, h0; split; [reflexivity | apply same_obs_refl]|].
  unfold alloc. eexists. eexists. split; [reflexivity|]. repeat split.
Qed.

Theorem addSimplexWithBasis_spec r bs id attr r' n : vinv r -> NoDup bs -> 2 <= length bs ->
  c_addSimplexWithBasis r bs id attr = (r', Ok n) ->
  vinv r' /\ containsSimplex r' n = true /\ sameset (basisOf r' n) bs /\ grows bs r r'.
Proof.
  intros Hv Hnd Hl H. unfold c_addSimplexWithBasis, addSimplexWithBasis in H.
  destruct bs as [|b0 bs0]; [simpl in Hl; lia|]. set (bs := b0 :: bs0) in *.
  destruct (match id with
            | Some n0 => containsSimplex r n0 || ((0 <? length bs - 1) && memn n0 bs)
            | None => false
            end); [discriminate|].
  destruct (attr_or_alloc r attr) as (st & h & Est & Hso). rewrite Est in H.
  change (simplexWithBasis rep (fun r0 => r0) containsSimplex orderOf st bs false) with (c_simplexWithBasis st bs false) in H.
  destruct (c_simplexWithBasis st bs false) as [[q|]|e]; try discriminate.
  replace (length bs - 1 =? 0) with false in H by (symmetry; apply Nat.eqb_neq; lia).
  assert (Hvst : vinv st) by (eapply vinv_same_obs; eauto).
  unfold ensureBasis in H. destruct (ensure_check rep containsSimplex orderOf st bs); [|discriminate].
  destruct (ensure_add rep containsSimplex orderOf addSimplex st bs (Some h)) as [st1 [[]|e]] eqn:Ee; [|discriminate].
  destruct (ensure_add_spec bs h bs st st1 Hvst (incl_refl bs) Ee) as (Hv1 & Hp1 & Hg1).
  assert (Hne : bs <> []) by discriminate.
  assert (Hfin : forall st2 nm, same_obs st1 st2 -> c_awb (S (length bs)) st2 nm h (length bs - 1) bs = (r', Ok n) ->
            vinv r' /\ containsSimplex r' n = true /\ sameset (basisOf r' n) bs /\ grows bs r r').
  { intros st2 nm Hso2 Ha.
    pose proof (pts_keeps st1 st2 bs (keeps_same_obs st1 st2 Hso2) Hp1) as Hp2.
    destruct (awb_spec (S (length bs)) st2 nm h (length bs - 1) bs r' n (vinv_same_obs st1 st2 Hso2 Hv1) Hnd Hne Hp2 Ha)
      as (A & B & C & D).
    split; [exact A|]. split; [exact B|]. split; [exact C|].
    apply (grows_trans bs r st r'); [now apply grows_same_obs|].
    apply (grows_trans bs st st1 r'); [exact Hg1|].
    apply (grows_trans bs st1 st2 r'); [now apply grows_same_obs | now apply (grows_ext bs (length bs))]. }
  destruct id as [nm|].
  - apply (Hfin st1 nm (same_obs_refl st1) H).
  - destruct (newSimplex_fresh st1 (length bs - 1)) as (i1 & n1 & En1 & _). rewrite En1 in H.
    apply (Hfin (set_seq st1 (S i1)) n1 (same_obs_set_seq st1 (S i1)) H).
Qed.
