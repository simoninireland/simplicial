(* CtorFrame.v -- at the level of exec: what a derived-complex constructor (copy of a complex or a
   filtration, deepcopy, compose, flagComplex, JSON decoding, snap, vietorisRipsComplex, one step of
   complexes()) may do to the world, accepted or rejected.  It takes a new owner from the counter,
   writes only cells of that owner, and binds at most its result variable, to an object that owns all
   its dictionaries under the new owner. *)
From Coq Require Import String ZArith Bool Arith List Lia.
From SV Require Import Names NamesFacts ListFacts Rep Fresh Complex Atomic RepInv Homology Filtration Gen World WorldProofs DeepcopyFrame CpsGen ComposeFresh FiltCopyFrame.
Import ListNotations.
Open Scope nat_scope.

Definition ctor_result (c : cmd) : option string :=
  match c with
  | CCopy x _ _ | CDeepCopy x _ | CCompose x _ _ | CFlag x _ | CJson x _ | CSnapF x _
  | CVR x _ _ | CNextOf x _ _ => Some x
  | _ => None
  end.

Definition binds (w : world) (x : string) (w' : world) : Prop :=
  wle w w' /\
  (w_vars w' = w_vars w \/
   exists ob, w_vars w' = vset (w_vars w) x ob /\
     forall r, rep_of ob = Some r -> owned r /\ w_uid w <= r_uid r < w_uid w').

Lemma binds_same w x (e : outcome) w' o : (w, e) = (w', o) -> binds w x w'.
Proof. intros [= <- _]. split; [apply wle_refl|now left]. Qed.
Arguments binds_same {w x e w' o}.

(* the common tail of the constructors: u has been taken from the counter, the object was built
   in cells of u, and it is bound only if the build succeeded *)
Lemma bind_fresh w u x ob r hp (res : res unit) w' o :
  owned r /\ r_uid r = u /\ agree_off u (w_heap w) hp ->
  (let w1 := mkWorld (w_vars w) (w_heap w) (S u) (w_dicts w) in
   match res with
   | Ok _ => (set_var (set_heap w1 hp) x ob, OkV VUnit)
   | Raise e => (set_heap w1 hp, Err e)
   end) = (w', o) ->
  w_uid w <= u -> rep_of ob = Some r -> binds w x w'.
Proof.
  intros (O & U & F) H Hu Hr.
  assert (L : wle w (mkWorld (w_vars w) hp (S u) (w_dicts w))) by (apply (wle_fresh _ _ u); cbn; auto).
  destruct res as [[]|e]; injection H as <- _; (split; [exact L|]); [right|now left].
  exists ob. split; [reflexivity|]. intros r0 Hr0. rewrite Hr in Hr0. injection Hr0 as <-.
  split; [exact O|cbn; lia].
Qed.
Arguments bind_fresh {w u x ob r hp res w' o}.

Theorem exec_ctor_spec w c x w' o : ctor_result c = Some x -> exec w c = (w', o) -> binds w x w'.
Proof.
  intros Hc H. destruct c; try discriminate Hc; injection Hc as ->;
    cbn [exec fresh_uid w_vars w_heap w_uid w_dicts] in H.
  - (* copy *)
    destruct (vget (w_vars w) _) as [[r|f|e]|]; try exact (binds_same H).
    + destruct (copy_new _ _ _) as [[hp r'] res] eqn:E.
      apply copy_new_fresh in E. apply (bind_fresh E H); auto.
    + destruct (f_copy _ _ _ _) as [[hp f'] res] eqn:E.
      apply f_copy_fresh in E. apply (bind_fresh E H); auto.
  - (* deepcopy *)
    destruct (vget (w_vars w) _) as [[r|f|e]|]; try exact (binds_same H);
      destruct (deepcopy_rep _ _ _) as [hp r'] eqn:E;
      apply deepcopy_fresh in E; apply (bind_fresh (res := Ok tt) E H); auto.
  - (* compose *)
    destruct (vget (w_vars w) a) as [[ra|?|?]|]; try exact (binds_same H).
    destruct (vget (w_vars w) b) as [[rb|?|?]|]; try exact (binds_same H).
    destruct (compose _ _ _ _ _) as [[hp d] res] eqn:E.
    apply compose_fresh in E. apply (bind_fresh E H); auto.
  - (* flagComplex *)
    destruct (vget (w_vars w) _) as [[r|?|?]|]; try exact (binds_same H).
    destruct (flagComplex _ _ _) as [[hp r'] res] eqn:E.
    apply flagComplex_fresh in E. apply (bind_fresh E H); auto.
  - (* JSON *)
    destruct (vget (w_vars w) _) as [ob|]; [|exact (binds_same H)].
    destruct (existsb _ (view_obj ob)), ob as [r|f|e]; try exact (binds_same H);
      destruct (decode _ _ _) as [[hp r'] res] eqn:E;
      apply (bind_fresh (decode_owned _ _ _ _ _ _ (owned_empty _) E) H); auto.
  - (* snap *)
    destruct (vget (w_vars w) _) as [[?|ff|?]|]; try exact (binds_same H).
    destruct (copy_new _ _ _) as [[hp r'] res] eqn:E.
    apply copy_new_fresh in E. apply (bind_fresh E H); auto.
  - (* one step of complexes() *)
    destruct (vget (w_vars w) _) as [[?|ff|?]|]; try exact (binds_same H).
    destruct (nth_error _ _) as [ind|]; [|exact (binds_same H)].
    destruct (copy_new _ _ _) as [[hp r'] res] eqn:E.
    apply copy_new_fresh in E. apply (bind_fresh E H); auto.
  - (* vietorisRipsComplex: the private complex takes an owner of its own first *)
    destruct (vget (w_vars w) _) as [ob|]; [|exact (binds_same H)].
    destruct (rep_of ob) as [r|]; [|exact (binds_same H)].
    destruct (vr_build _ _ _) as [vr [[]|e]].
    + destruct (flagComplex _ _ _) as [[hp r'] res] eqn:E.
      apply flagComplex_fresh in E. apply (bind_fresh E H); auto.
    + injection H as <- _. split; [split; cbn; auto|now left].
Qed.

Theorem ctor_binds_only_result w c x w' o y : ctor_result c = Some x -> exec w c = (w', o) -> y <> x ->
  vget (w_vars w') y = vget (w_vars w) y.
Proof.
  intros Hc H Hne. destruct (exec_ctor_spec _ _ _ _ _ Hc H) as [_ [->|(ob & -> & _)]]; [reflexivity|].
  now apply vget_vset_other.
Qed.

Theorem ctor_heap_frame w c x w' o : ctor_result c = Some x -> exec w c = (w', o) ->
  forall h, fst h < w_uid w -> heap_get (w_heap w') h = heap_get (w_heap w) h.
Proof. intros Hc H. apply (exec_ctor_spec _ _ _ _ _ Hc H). Qed.
