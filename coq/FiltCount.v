(* FiltCount.v -- Filtration.numberOfSimplices() (which walks indices() and adds up the sizes of the
   _includes entries up to the current index) is the number of simplices the filtration lists at
   its current index, for every filtration that satisfies the bookkeeping invariant -- every
   filtration history (FiltBook). *)
From Coq Require Import String ZArith Bool Arith List Lia Sorted Permutation.
From SV Require Import Names NamesFacts Rep RepInv Complex Filtration FiltProofs FiltClosed Shapes FiltBook.
From SV Require Closed ClosedReach Listing Cmp.
Import ListNotations.
Open Scope nat_scope.

Lemma sum_perm l1 l2 : Permutation l1 l2 -> fold_right Nat.add 0 l1 = fold_right Nat.add 0 l2.
Proof. induction 1; simpl; lia. Qed.

Section Count.
  Variable f : filt.
  Hypothesis Hm : minv f.
  Hypothesis Hb : binv f.

  Definition blk (p : idx * list name) : list name :=
    if (fst p <=? f_index f)%Z then snd p else [].
  Definition visible_by_tables : list name := flat_map blk (f_includes f).

  Lemma count_by_keys inc0 inc : (forall i l, In (i, l) inc -> zassoc i inc0 = Some l) ->
    map (fun i => if (i <=? f_index f)%Z then match zassoc i inc0 with Some l => length l | None => 0 end else 0)
        (map fst inc) = map (fun p => length (blk p)) inc.
  Proof.
    induction inc as [|[k v] t IH]; simpl; intros H; [reflexivity|]. f_equal.
    - unfold blk. simpl. rewrite (H k v) by (now left). destruct (k <=? f_index f)%Z; reflexivity.
    - apply IH. intros i l Hin. apply H. now right.
  Qed.

  Lemma length_flat_map_blk inc : length (flat_map blk inc) = fold_right Nat.add 0 (map (fun p => length (blk p)) inc).
  Proof. induction inc as [|p t IH]; simpl; [reflexivity|]. now rewrite app_length, IH. Qed.

  Lemma number_is_table_count : f_numberOfSimplices f = length visible_by_tables.
  Proof.
    unfold f_numberOfSimplices, visible_by_tables, f_indices. rewrite length_flat_map_blk.
    rewrite <- (count_by_keys (f_includes f) (f_includes f)).
    - apply sum_perm. apply Permutation_map. apply zsort_perm.
    - intros i l. apply zassoc_of_in. exact (b_keys f Hb).
  Qed.

  Lemma blocks_nodup inc :
    NoDup (map fst inc) -> (forall i l, In (i, l) inc -> NoDup l) ->
    (forall i l s, In (i, l) inc -> In s l -> assoc s (f_appears f) = Some i) ->
    NoDup (flat_map blk inc).
  Proof.
    induction inc as [|[k v] t IH]; simpl; intros Hk Hl Hs; [constructor|].
    inversion Hk as [|a b Hn Hd]; subst. apply NoDup_app'.
    - unfold blk. simpl. destruct (k <=? f_index f)%Z; [apply (Hl k v); now left|constructor].
    - apply IH; [exact Hd| |]; intros; eauto.
    - intros s H1 H2. unfold blk in H1. simpl in H1. destruct (k <=? f_index f)%Z; [|destruct H1].
      apply in_flat_map in H2. destruct H2 as ([j l] & Hjl & Hin). unfold blk in Hin. simpl in Hin.
      destruct (j <=? f_index f)%Z; [|destruct Hin].
      assert (E1 : assoc s (f_appears f) = Some k) by (apply (Hs k v); auto).
      assert (E2 : assoc s (f_appears f) = Some j) by (apply (Hs j l); auto).
      assert (j = k) by congruence. subst j. apply Hn. apply in_map_iff. exists (k, l). auto.
  Qed.

  Lemma tables_nodup : NoDup visible_by_tables.
  Proof.
    apply blocks_nodup.
    - exact (b_keys f Hb).
    - intros i l Hin. apply (b_nd f Hb i). apply zassoc_of_in; [exact (b_keys f Hb)|exact Hin].
    - intros i l s Hin Hs. apply births_by_entries; eauto.
  Qed.

  Lemma tables_iff s : In s visible_by_tables <-> In s (f_simplices f false).
  Proof.
    unfold visible_by_tables, f_simplices. rewrite in_flat_map, filter_In.
    rewrite (In_simplices_iff _ _ (s_p _ (m_s f Hm))), f_contains_iff. split.
    - intros ([i l] & Hil & Hs). unfold blk in Hs. simpl in Hs. destruct (Z.leb_spec i (f_index f)) as [Le|]; [|destruct Hs].
      assert (A : assoc s (f_appears f) = Some i) by (apply births_by_entries; eauto).
      assert (C : containsSimplex (f_rep f) s = true).
      { destruct (containsSimplex (f_rep f) s) eqn:C; [reflexivity|]. apply (m_dom f Hm) in C. congruence. }
      eauto.
    - intros (_ & _ & i & A & Le). apply births_by_entries in A; [|exact Hb]. destruct A as (l & Hl & Hs).
      exists (i, l). split; [exact Hl|]. unfold blk. simpl. now rewrite (proj2 (Z.leb_le _ _) Le).
  Qed.

  Theorem numberOfSimplices_counts_the_view : f_numberOfSimplices f = length (f_simplices f false).
  Proof.
    rewrite number_is_table_count.
    assert (N2 : NoDup (f_simplices f false)).
    { unfold f_simplices. apply NoDup_filter. apply simplices_nodup. exact (s_p _ (m_s f Hm)). }
    apply Nat.le_antisymm.
    - apply NoDup_incl_length; [exact tables_nodup|]. intros s. apply tables_iff.
    - apply NoDup_incl_length; [exact N2|]. intros s. apply tables_iff.
  Qed.
End Count.

Theorem snapshot_counts_what_the_filtration_counts hp f uid hp' c :
  minv f -> binv f -> Closed.cinv (f_rep f) -> copy_new hp (f_view f) uid = (hp', c, Ok tt) ->
  numberOfSimplices c = f_numberOfSimplices f.
Proof.
  intros Hm Hb Hc H.
  pose proof (ClosedReach.copy_new_cinv hp (f_view f) uid hp' c (Ok tt) H) as Cc.
  rewrite (Cmp.numberOfSimplices_length c (s_p _ (Closed.c_s _ Cc))).
  rewrite (Listing.snap_listing hp f uid hp' c Hc H).
  symmetry. now apply numberOfSimplices_counts_the_view.
Qed.
