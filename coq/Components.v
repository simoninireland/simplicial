(* Components.v -- for a 0/1 matrix over GF(2) whose every column has exactly two ones (the
   vertex-edge incidence matrix of a graph), rank = #vertices - #connected components.  With the
   Betti formula this is "the 0th Betti number is the number of connected components" (C06). *)
From mathcomp Require Import ssreflect ssrfun ssrbool eqtype ssrnat seq path choice fintype finfun fingraph bigop finset fingroup perm ssralg zmodp matrix mxalgebra.
Set Implicit Arguments.
Unset Strict Implicit.
Unset Printing Implicit Defensive.
Import GRing.Theory.
Local Open Scope ring_scope.

Lemma f2_addxx (a : 'F_2) : a + a = 0.
Proof. by rewrite -mulr2n -mulr_natl (_ : 2%:R = 0 :> 'F_2) ?mul0r //; apply/val_inj. Qed.

Lemma f2_add_eq0 (a b : 'F_2) : a + b = 0 -> a = b.
Proof. by move=> H; rewrite -[a]addr0 -(f2_addxx b) addrA H add0r. Qed.

Section Comp.
Variables (n m : nat) (B : 'M['F_2]_(n, m)).
Variables (ea eb : 'I_m -> 'I_n).
Hypothesis HB : forall i j, B i j = ((i == ea j) || (i == eb j))%:R.
Hypothesis Hends : forall j, ea j != eb j.

Definition adj : rel 'I_n :=
  fun a b => [exists j, ((a == ea j) && (b == eb j)) || ((a == eb j) && (b == ea j))].

Lemma adj_sym : symmetric adj.
Proof.
move=> a b; apply/existsP/existsP => -[j /orP[/andP[H1 H2]|/andP[H1 H2]]]; exists j.
- by rewrite H2 H1 orbT.
- by rewrite H2 H1.
- by rewrite H2 H1 orbT.
- by rewrite H2 H1.
Qed.

Let csym : connect_sym adj := sym_connect_sym adj_sym.

Lemma ends_connected j : fingraph.root adj (ea j) = fingraph.root adj (eb j).
Proof.
apply/(fingraph.rootP csym); apply: connect1; apply/existsP; exists j.
by rewrite !eqxx.
Qed.

Lemma sum_col (f : 'I_n -> 'F_2) j : \sum_i f i * B i j = f (ea j) + f (eb j).
Proof.
rewrite (bigD1 (ea j)) //= (bigD1 (eb j)) /=; last by rewrite eq_sym.
rewrite !HB !eqxx orbT mulr1 /= mulr1 big1 ?addr0 // => i /andP[H1 H2].
by rewrite HB (negbTE H1) (negbTE H2) mulr0.
Qed.

Let c := #|fingraph.roots adj|.
Let rt (k : 'I_c) : 'I_n := enum_val k.
(* Row k of G is the indicator vector of the k-th connected component (rt k is its root); G' reads a vector
   off at the roots, so G G' = 1.  B kills every row of G (both ends of an edge lie in one component), and a
   vector killed by B is constant on components, X = X G' G: the rows of G are a basis of the kernel of B. *)
Definition G : 'M['F_2]_(c, n) := \matrix_(k, i) (fingraph.root adj i == rt k)%:R.
Definition G' : 'M['F_2]_(n, c) := \matrix_(i, k) (i == rt k)%:R.

Lemma rt_root k : fingraph.root adj (rt k) = rt k.
Proof. by apply/eqP; exact: (enum_valP k). Qed.

Lemma GG' : G *m G' = 1%:M.
Proof.
apply/matrixP => k k'; rewrite !mxE (bigD1 (rt k')) //= big1 ?addr0; last first.
  by move=> i Hi; rewrite !mxE (negbTE Hi) mulr0.
rewrite !mxE eqxx mulr1 rt_root.
by rewrite (inj_eq (@enum_val_inj _ _)) eq_sym.
Qed.

Lemma GB : G *m B = 0.
Proof.
apply/matrixP => k j; rewrite !mxE.
under eq_bigr do rewrite mxE.
by rewrite sum_col ends_connected f2_addxx.
Qed.

(* a vector killed by B is constant on components *)
Lemma ker_adj (x : 'I_n -> 'F_2) : (forall j, x (ea j) + x (eb j) = 0) -> forall a b, adj a b -> x a = x b.
Proof.
move=> H a b /existsP[j /orP[/andP[/eqP-> /eqP->]|/andP[/eqP-> /eqP->]]].
- exact: f2_add_eq0.
- by apply/esym/f2_add_eq0.
Qed.

Lemma ker_connect (x : 'I_n -> 'F_2) : (forall j, x (ea j) + x (eb j) = 0) -> forall a b, connect adj a b -> x a = x b.
Proof.
move=> H a b /connectP[p Hp ->]; elim: p a Hp => [|y p IH] a //= /andP[Hay Hp].
by rewrite (ker_adj H Hay); apply: IH.
Qed.

Lemma ker_decomp p (X : 'M['F_2]_(p, n)) : X *m B = 0 -> X = X *m G' *m G.
Proof.
move=> HX; apply/matrixP => i0 i; rewrite !mxE.
have Hx : forall j, X i0 (ea j) + X i0 (eb j) = 0.
  move=> j; have := congr1 (fun M : 'M_(p, m) => M i0 j) HX; rewrite !mxE => <-.
  by rewrite sum_col.
have Hroot : fingraph.root adj i \in fingraph.roots adj by exact: roots_root.
rewrite (bigD1 (enum_rank_in Hroot (fingraph.root adj i))) //= big1 ?addr0; last first.
  move=> k Hk; rewrite !mxE.
  have -> : (fingraph.root adj i == rt k) = false; last by rewrite mulr0.
  apply/negbTE; move: Hk; apply: contra => /eqP E.
  by apply/eqP; apply: enum_val_inj; rewrite enum_rankK_in // -/(rt k) -E.
rewrite !mxE /rt enum_rankK_in // eqxx mulr1.
rewrite (bigD1 (fingraph.root adj i)) //= big1 ?addr0; last first.
  by move=> i' Hi'; rewrite !mxE /rt enum_rankK_in // (negbTE Hi') mulr0.
rewrite !mxE /rt enum_rankK_in // eqxx mulr1.
by apply: (ker_connect Hx); exact: connect_root.
Qed.

Theorem rank_incidence : (\rank B + n_comp adj predT = n)%N.
Proof.
have Hc : n_comp adj predT = c.
  by rewrite /n_comp_mem /c; apply: eq_card => x; rewrite !inE andbT.
have HG : \rank G = c.
  by apply/eqP; rewrite -/(row_free G); apply/row_freeP; exists G'; exact: GG'.
have HK : (kermx B :=: G)%MS.
  apply/eqmxP/andP; split.
  - have H0 := mulmx_ker B. rewrite (ker_decomp H0). exact: submxMl.
  - by apply/sub_kermxP; exact: GB.
have := mxrank_ker B; rewrite HK.1 HG -Hc => Hr.
have Hle := rank_leq_row B.
by rewrite Hr subnKC.
Qed.
End Comp.

(* the same with the ends of each column given existentially, and adjacency read off the matrix *)
Definition adjB n m (B : 'M['F_2]_(n, m)) : rel 'I_n :=
  fun a b => [exists j, [&& a != b, B a j == 1 & B b j == 1]].

Theorem rank_graph n m (B : 'M['F_2]_(n, m)) :
  (forall j, exists a b : 'I_n, a != b /\ forall i, B i j = ((i == a) || (i == b))%:R) ->
  (\rank B + n_comp (adjB B) predT = n)%N.
Proof.
move=> Hcol.
pose P j (ab : 'I_n * 'I_n) := (ab.1 != ab.2) && [forall i, B i j == ((i == ab.1) || (i == ab.2))%:R].
have Hex : forall j, exists ab, P j ab.
  move=> j; have [a [b [Hab Hi]]] := Hcol j; exists (a, b); rewrite /P /= Hab /=.
  by apply/forallP => i; rewrite Hi.
pose ea j := (xchoose (Hex j)).1. pose eb j := (xchoose (Hex j)).2.
have Hends : forall j, ea j != eb j by move=> j; have /andP[] := xchooseP (Hex j).
have HB : forall i j, B i j = ((i == ea j) || (i == eb j))%:R.
  by move=> i j; have /andP[_ /forallP/(_ i)/eqP] := xchooseP (Hex j).
rewrite -[RHS](rank_incidence HB Hends).
(* congr would first try to convert the two relations *)
apply: (congr1 (addn _)); apply: eq_n_comp; apply: eq_connect => a b.
have F1 : forall x : bool, (x%:R == 1 :> 'F_2) = x by case.
rewrite /adjB /adj; apply/existsP/existsP => -[j].
- case/and3P => Hab; rewrite !HB !F1 => Ha Hb; exists j.
  case/orP: Ha => /eqP Ea; case/orP: Hb => /eqP Eb; rewrite Ea Eb ?eqxx ?orbT //.
  + by move: Hab; rewrite Ea Eb eqxx.
  + by move: Hab; rewrite Ea Eb eqxx.
- case/orP => /andP[/eqP Ea /eqP Eb]; exists j; rewrite !HB !F1 Ea Eb !eqxx ?orbT /= ?andbT //.
  first [exact: Hends | by rewrite eq_sym; exact: Hends].
Qed.
