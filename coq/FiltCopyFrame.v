(* FiltCopyFrame.v -- Filtration.copy(): whatever its outcome, the complex underneath the result owns
   every one of its dictionaries under the new uid, and no dictionary of anybody else is written. *)
From Coq Require Import String ZArith Bool Arith List Lia.
From SV Require Import Rep Complex Filtration FiltProofs WorldProofs.
Import ListNotations.

Definition fstate (uid : nat) (hp0 : heap) (s : heap * filt) : Prop :=
  owned_by uid (f_rep (snd s)) /\ agree_off uid hp0 (fst s).

Lemma fstate_alloc uid hp0 hp c r h d : fstate uid hp0 (hp, c) -> alloc (f_rep c) = (r, h) ->
  fstate uid hp0 (heap_set hp h d, with_rep c r).
Proof.
  intros [[O U] A] Ea. cbn [fst snd] in *.
  pose proof (alloc_owned (f_rep c) O) as X. rewrite Ea in X. cbn [fst snd] in X. destruct X as (O' & Hh & U').
  split; cbn [fst snd].
  - split; [exact O'|]. simpl. congruence.
  - eapply agree_off_trans; [exact A|]. apply agree_off_set. congruence.
Qed.

Theorem f_copy_fresh hp f uid orders hp' c x : f_copy hp f uid orders = (hp', c, x) ->
  owned (f_rep c) /\ r_uid (f_rep c) = uid /\ forall h, fst h <> uid -> heap_get hp' h = heap_get hp h.
Proof.
  intros H. assert (G : fstate uid hp (hp', c)); [|destruct G as [[O U] A]; auto].
  revert H. apply (f_copy_I f (fstate uid hp)).
  - intros hp1 c1 i. unfold fstate. cbn [fst snd]. now rewrite f_rep_setIndex.
  - intros hp1 c1 r h d. apply fstate_alloc.
  - intros hp1 c1 r h d fs id c' y H Ea EA. destruct (fstate_alloc _ _ _ _ _ _ d H Ea) as [O4 A4].
    destruct (f_addSimplex_rep _ _ _ _ _ _ EA) as [->|[z E]]; [now split|]. split; [|exact A4].
    exact (proj1 (alloc_add_owned uid (f_rep c1) r h fs id (f_rep c') z (proj1 H) Ea E)).
  - intros i. split; [split; [apply owned_empty|reflexivity]|apply agree_off_refl].
Qed.
