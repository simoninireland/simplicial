(* ShapesReach.v -- the shape invariant (Shapes.v) holds after every algorithm of base.py, and what
   follows from it for every complex built through the public operations: boundary operators
   have one column per simplex and one row per face-order simplex, Z() returns cycles, and the
   Euler characteristic is the alternating sum of the Betti numbers.  Plain Coq. *)
From Coq Require Import String ZArith Bool Arith List Lia.
From SV Require Import Names NamesFacts ListFacts Rep Fresh Complex Atomic RepInv ReachGen Homology ListMat SnfCount Shapes ZCycles ZProofs2.
From SV Require Rank Betti ZProofs EulerP.
Import ListNotations.
Open Scope nat_scope.

Theorem deleteSimplex_sinv r s r' x : sinv r -> deleteSimplex r s = (r', x) -> sinv r'.
Proof. apply deleteSimplex_by_forceDelete, forceDeleteSimplex_sinv. Qed.

Local Hint Resolve sinv_same_obs sinv_empty addSimplex_sinv relabelSimplex_sinv deleteSimplex_sinv : sinv.

Theorem deleteSimplexWithBasis_sinv r bs r' x : sinv r -> deleteSimplexWithBasis r bs = (r', x) -> sinv r'.
Proof. inst deleteSimplexWithBasis_I at sinv with sinv. Qed.
Theorem deleteSimplices_sinv r ss r' x : sinv r -> deleteSimplices r ss = (r', x) -> sinv r'.
Proof. inst deleteSimplices_I at sinv with sinv. Qed.
Theorem restrictBasisTo_sinv r bs r' x : sinv r -> restrictBasisTo r bs = (r', x) -> sinv r'.
Proof. inst restrictBasisTo_I at sinv with sinv. Qed.
Theorem ensureBasis_sinv r bs attr r' x : sinv r -> c_ensureBasis r bs attr = (r', x) -> sinv r'.
Proof. inst ensureBasis_I at sinv with sinv. Qed.
Theorem addSimplexWithBasis_sinv r bs id attr r' x : sinv r -> c_addSimplexWithBasis r bs id attr = (r', x) -> sinv r'.
Proof. inst addSimplexWithBasis_I at sinv with sinv. Qed.
Theorem barycentricSubdivide_sinv r s pts r' x : sinv r -> barycentricSubdivide r s pts = (r', x) -> sinv r'.
Proof. inst barycentricSubdivide_I at sinv with sinv. Qed.
Theorem relabel_sinv r rn r' st x : sinv r -> relabel r rn = (r', st, x) -> sinv r'.
Proof. inst relabel_I at sinv with sinv. Qed.
Theorem addSimplicesFrom_sinv hp r src rn hp' r' st x : sinv r -> addSimplicesFrom hp r src rn = (hp', r', st, x) -> sinv r'.
Proof. inst addSimplicesFrom_I at sinv with sinv. Qed.
Theorem copy_new_sinv hp src uid hp' r' x : copy_new hp src uid = (hp', r', x) -> sinv r'.
Proof. inst copy_new_I at sinv with sinv. Qed.
Theorem copy_into_sinv hp src target hp' r' x : sinv target -> copy_into hp src target = (hp', r', x) -> sinv r'.
Proof. inst copy_into_I at sinv with sinv. Qed.

Theorem Z1_are_cycles r k ch : sinv r -> In ch (Z1 r k) ->
  forall i, i < nrows (boundaryOperator r k) -> vsum name (colval r k) ch i = false.
Proof.
  intros H. apply Z1_cycles.
  - apply simplicesOfOrder_nodup, (s_p r H).
  - now apply boundary_ncols.
Qed.

Theorem Z1_number r k :
  length (Z1 r k) = length (simplicesOfOrder r k) - Betti.rk (boundaryOperator r k).
Proof. apply ZProofs.Z1_count. Qed.

Theorem euler_is_alternating_betti_sum r : sinv r ->
  eulerCharacteristic r = EulerP.alt_sumZ 1%Z (map (betti1 r) (seq 0 (r_nord r))).
Proof. intros H. apply EulerP.euler_characteristic_is_alt_betti. intros k _. now apply boundary_ncols. Qed.

Corollary reachable_euler uid ops :
  let r := fold_left rstep ops (empty_rep uid) in
  eulerCharacteristic r = EulerP.alt_sumZ 1%Z (map (betti1 r) (seq 0 (r_nord r))).
Proof. apply euler_is_alternating_betti_sum, reachable_sinv. Qed.
