(* DisjointRen.v -- C15: relabelDisjointFrom(c).  The renaming it builds maps exactly the simplices of the receiver that
   c also names, each to a name that neither the receiver nor c uses and that no other simplex was given; hence a
   completed relabelDisjointFrom leaves no name shared with c and renames only names that collided.  Plain Coq. *)
From Coq Require Import String ZArith Bool Arith List Lia.
From SV Require Import Names NamesFacts ListFacts Rep Complex RepInv Reach RelabelAll RelabelPhi.
Import ListNotations.
Open Scope nat_scope.

Record drinv (r c : rep) (m : list (name * name)) : Prop := {
  d_keys : forall s q, assoc s m = Some q -> containsSimplex r s = true /\ containsSimplex c s = true;
  d_vals : forall s q, assoc s m = Some q -> containsSimplex r q = false /\ containsSimplex c q = false;
  d_inj : forall s s' q, assoc s m = Some q -> assoc s' m = Some q -> s = s' }.

Lemma disj_search_spec fuel r c taken s k u q : disj_search fuel r c taken s k u = Some q ->
  containsSimplex r q = false /\ containsSimplex c q = false /\ memn q taken = false.
Proof.
  revert u. induction fuel as [|f IH]; intros u H; simpl in H; [discriminate|].
  destruct (containsSimplex r (disj_name s k u) || containsSimplex c (disj_name s k u) || memn (disj_name s k u) taken) eqn:E.
  - eapply IH; eauto.
  - injection H as <-. apply orb_false_iff in E. destruct E as [E E3]. apply orb_false_iff in E. tauto.
Qed.

Lemma in_vals s q (m : list (name * name)) : assoc s m = Some q -> memn q (map snd m) = true.
Proof. intros A. apply memn_In. apply assoc_some_in in A. apply in_map_iff. exists (s, q). auto. Qed.

Lemma drinv_step r c m s q : drinv r c m -> containsSimplex r s = true -> containsSimplex c s = true ->
  containsSimplex r q = false -> containsSimplex c q = false -> memn q (map snd m) = false -> assoc s m = None ->
  drinv r c (assoc_set s q m).
Proof.
  intros [K V I] Cr Cc Qr Qc Qt An. constructor.
  - intros x y. rewrite assoc_set_spec. destruct (name_eqb_spec x s) as [->|Hne]; [intros _; auto|apply K].
  - intros x y. rewrite assoc_set_spec. destruct (name_eqb_spec x s) as [->|Hne]; [intros [= <-]; auto|apply V].
  - intros x x' y. rewrite !assoc_set_spec.
    destruct (name_eqb_spec x s) as [->|Hx], (name_eqb_spec x' s) as [->|Hx']; auto.
    + intros [= <-] A. apply in_vals in A. congruence.
    + intros A [= <-]. apply in_vals in A. congruence.
    + apply I.
Qed.

Lemma fold_left_snoc_inv {A B} (f : A -> B -> A) (P : list B -> A -> Prop) :
  (forall d x a, P d a -> P (d ++ [x]) (f a x)) -> forall l d a, P d a -> P (d ++ l) (fold_left f l a).
Proof.
  intros St l d a H. apply (prefix_ind (fun dn => P (d ++ dn) (fold_left f dn a))); [now rewrite app_nil_r|].
  intros dn x rest _ Q. rewrite app_assoc, fold_left_app. apply St, Q.
Qed.

Lemma fold_left_nested_inv {A B K} (f : K -> A -> B -> A) (g : K -> list B) (P : list B -> A -> Prop) :
  (forall k d x a, P d a -> P (d ++ [x]) (f k a x)) ->
  forall ks d a, P d a -> P (d ++ concat (map g ks)) (fold_left (fun acc k => fold_left (f k) (g k) acc) ks a).
Proof.
  intros St. induction ks as [|k ks IH]; intros d a H; simpl; [now rewrite app_nil_r|].
  rewrite app_assoc. apply IH, fold_left_snoc_inv; [apply St|exact H].
Qed.

Section Build.
  Variables r c : rep.
  Hypothesis Pc : pinv c.

  (* the body of the two loops of _createDisjointRenaming, for a simplex s of c of order k *)
  Definition inner (k : nat) (acc : res (list (name * name))) (s : name) : res (list (name * name)) :=
    match acc with
    | Raise e => Raise e
    | Ok m =>
        if containsSimplex r s then
          match disj_search (S (length (r_simp r) + length (r_simp c) + length m)) r c (map snd m) s k 1 with
          | Some q => Ok (assoc_set s q m)
          | None => Raise OutOfFuel
          end
        else Ok m
    end.

  (* the loop invariant once the simplices in `done` have been seen: the keys are those of `done` that r has.
     It is stated under what is known of the whole listing only at the end (no repeats, all of c), and says
     nothing once the search has run out of fuel: this is what lets one step be proved alone *)
  Definition covers (done : list name) (m : list (name * name)) : Prop :=
    forall s, assoc s m <> None <-> In s done /\ containsSimplex r s = true.
  Definition good (done : list name) (acc : res (list (name * name))) : Prop :=
    NoDup done -> (forall s, In s done -> containsSimplex c s = true) ->
    match acc with Ok m => drinv r c m /\ covers done m | Raise _ => True end.

  Lemma inner_good k done s acc : good done acc -> good (done ++ [s]) (inner k acc s).
  Proof.
    intros G Hnd Hc.
    assert (Hnew : ~ In s done) by (apply NoDup_remove_2 in Hnd; now rewrite app_nil_r in Hnd).
    apply NoDup_remove_1 in Hnd. rewrite app_nil_r in Hnd.
    specialize (G Hnd (fun x Hx => Hc x (in_or_app _ _ _ (or_introl Hx)))).
    destruct acc as [m|e]; [|exact I]. destruct G as [D Cv]. cbn [inner].
    assert (An : assoc s m = None).
    { destruct (assoc s m) eqn:A; [|reflexivity]. exfalso. apply Hnew, (Cv s). congruence. }
    destruct (containsSimplex r s) eqn:Cr.
    - destruct (disj_search _ r c (map snd m) s k 1) as [q|] eqn:Es; [|exact I].
      destruct (disj_search_spec _ _ _ _ _ _ _ _ Es) as (Qr & Qc & Qt). split.
      + apply drinv_step; auto. apply Hc, in_or_app. right. now left.
      + intros x. rewrite assoc_set_spec, in_app_iff. destruct (name_eqb_spec x s) as [->|Hne].
        * split; [intros _; split; [right; now left|exact Cr]|discriminate].
        * rewrite (Cv x). split; [intros [A B]; split; [now left|exact B]|intros [[A|[A|[]]] B]; [auto|congruence]].
    - split; [exact D|]. intros x. rewrite (Cv x), in_app_iff. split; [intros [A B]; split; [now left|exact B]|].
      intros [[A|[A|[]]] B]; [auto|subst x; congruence].
  Qed.

  Theorem createDisjointRenaming_spec m : createDisjointRenaming r c = Ok m ->
    drinv r c m /\ forall s, assoc s m <> None <-> containsSimplex c s = true /\ containsSimplex r s = true.
  Proof.
    intros H. change (fold_left (fun acc k => fold_left (inner k) (simplicesOfOrder c k) acc) (seq 0 (r_nord c)) (Ok []) = Ok m) in H.
    assert (G0 : good [] (Ok [])).
    { intros _ _. split; [constructor; intros; discriminate|]. intros s. simpl. split; [intros X; now elim X|intros [[] _]]. }
    pose proof (fold_left_nested_inv inner (simplicesOfOrder c) good inner_good (seq 0 (r_nord c)) [] (Ok []) G0) as G.
    rewrite H in G. cbn [app] in G. rewrite <- (simplices_concat c Pc) in G.
    destruct G as [D Cv]; [now apply simplices_nodup | intros s; apply (In_simplices_iff c s Pc) |].
    split; [exact D|]. intros s. rewrite (Cv s), (In_simplices_iff c s Pc). tauto.
  Qed.
End Build.

(* C15: a completed relabelDisjointFrom leaves no name shared with c, and renames only names that collided *)
Theorem relabelDisjointFrom_spec r c r' st mapping : pinv r -> pinv c ->
  relabelDisjointFrom r c = (r', st, Ok mapping) ->
  (forall s, containsSimplex r' s = true -> containsSimplex c s = false) /\
  (forall s t, In (s, t) mapping -> containsSimplex r s = true /\ containsSimplex c s = true /\ containsSimplex c t = false) /\
  (forall s, containsSimplex r s = true -> containsSimplex c s = false -> containsSimplex r' s = true).
Proof.
  intros Pr Pc H. unfold relabelDisjointFrom in H.
  destruct (createDisjointRenaming r c) as [m|e] eqn:Em; [|discriminate].
  destruct (createDisjointRenaming_spec r c Pc m Em) as [[K V I] Cv].
  destruct (relabel_phi r (RMap m) r' st mapping Pr ltac:(discriminate) H) as (Ren & Emap & _).
  pose proof (relabel_phi_dict r m r' st mapping Pr H) as Hum.
  pose proof (relabel_pinv r (RMap m) r' st (Ok mapping) Pr H) as Pr'.
  apply (renamed_ext _ (um m) r r' Pr) in Ren; [|intros x Cx; now apply Hum, In_simplices_iff].
  pose proof (fun s => renamed_contains (um m) r r' s Pr Pr' Ren) as Img.
  split; [|split].
  - intros s Cs. apply Img in Cs. destruct Cs as (x & Cx & ->). unfold um. destruct (assoc x m) as [q|] eqn:A.
    + exact (proj2 (V x q A)).
    + destruct (containsSimplex c x) eqn:Cc; [|reflexivity]. exfalso. apply (proj2 (Cv x)); auto.
  - intros s t Hin. rewrite Emap in Hin. unfold changed in Hin. apply in_map_iff in Hin. destruct Hin as (x & [= <- <-] & Hx).
    apply filter_In in Hx. destruct Hx as [Hx Hne]. rewrite (Hum x Hx) in *. unfold um in *.
    destruct (assoc x m) as [q|] eqn:A; [|rewrite name_eqb_refl in Hne; discriminate].
    destruct (K x q A) as [Kr Kc]. destruct (V x q A) as [_ Vc]. auto.
  - intros s Cr Cc. apply Img. exists s. split; [exact Cr|]. unfold um. destruct (assoc s m) as [q|] eqn:A; [|reflexivity].
    destruct (K s q A) as [_ Kc]. congruence.
Qed.
