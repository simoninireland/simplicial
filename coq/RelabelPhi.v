(* RelabelPhi.v -- C15: a completed relabel() renames by THE USER'S renaming and reports it: the
   function phi along which every listing is renamed is "the name the renaming gave this simplex (as
   remembered from its one call), itself otherwise", for a dict renaming `m.get(s, s)`; the returned
   mapping lists, in listing order, exactly the simplices whose name changed.  Plain Coq. *)
From Coq Require Import String ZArith Bool Arith List Lia.
From SV Require Import Names NamesFacts Rep Complex RepInv RelabelProofs RelabelAll AddEffect.
Import ListNotations.
Open Scope nat_scope.

Definition memo_of (st : rl) (x : name) : name := match assoc x (rl_memo st) with Some t => t | None => x end.
(* the renaming carried out when the second pass has handled the simplices in `done` *)
Definition psi (st : rl) (done : list name) (x : name) : name := if memn x done then memo_of st x else x.
Definition changed (st : rl) (ss : list name) : list (name * name) :=
  map (fun s => (s, memo_of st s)) (filter (fun s => negb (name_eqb s (memo_of st s))) ss).

Lemma psi_fresh st done s : ~ In s done -> psi st done s = s.
Proof. intros H. unfold psi. now rewrite (proj2 (memn_false s done) H). Qed.

Lemma psi_snoc st done s x : psi st (done ++ [s]) x = if name_eqb x s then memo_of st s else psi st done x.
Proof.
  unfold psi, memn. rewrite existsb_app. simpl. rewrite orb_false_r.
  destruct (name_eqb_spec x s) as [->|_]; [now rewrite orb_true_r | now rewrite orb_false_r].
Qed.

Lemma changed_cons st s ss :
  changed st (s :: ss) = (if name_eqb s (memo_of st s) then [] else [(s, memo_of st s)]) ++ changed st ss.
Proof. unfold changed. simpl. now destruct (name_eqb s (memo_of st s)). Qed.

Lemma rl_apply_hit rn st s t : rn <> RNone -> assoc s (rl_memo st) = Some t -> rl_apply rn st s = (st, t).
Proof. intros Hn A. destruct rn as [|m|f]; [congruence| |]; simpl; now rewrite A. Qed.

Lemma rl_apply_grows rn st s x v :
  assoc x (rl_memo st) = Some v -> assoc x (rl_memo (fst (rl_apply rn st s))) = Some v.
Proof.
  intros A. destruct rn as [|m|f]; simpl; [exact A| |];
    (destruct (assoc s (rl_memo st)); [exact A | now apply assoc_old]).
Qed.

Lemma rl_apply_memo rn st s st1 t : rn <> RNone -> rl_apply rn st s = (st1, t) ->
  assoc s (rl_memo st1) = Some t /\ forall x v, assoc x (rl_memo st) = Some v -> assoc x (rl_memo st1) = Some v.
Proof.
  intros Hn H. split; [|intros x v A; apply (rl_apply_grows rn st s) in A; now rewrite H in A].
  destruct rn as [|m|f]; [congruence| |]; simpl in H;
    (destruct (assoc s (rl_memo st)) as [t0|] eqn:A; injection H as <- <-; [exact A | now apply assoc_new]).
Qed.

Lemma check_grows rn ss st names st' x : relabel_check rn st ss names = (st', x) ->
  forall y v, assoc y (rl_memo st) = Some v -> assoc y (rl_memo st') = Some v.
Proof.
  refine (relabel_check_inv (fun st1 => forall y v, assoc y (rl_memo st) = Some v -> assoc y (rl_memo st1) = Some v)
            rn _ ss st names st' x (fun _ _ A => A)).
  intros st1 s Q y v A. now apply rl_apply_grows, Q.
Qed.

(* an accepted check has asked the renaming about every simplex *)
Lemma check_memo rn : rn <> RNone -> forall ss st names st', relabel_check rn st ss names = (st', Ok tt) ->
  forall s, In s ss -> exists t, assoc s (rl_memo st') = Some t.
Proof.
  intros Hn. induction ss as [|s t IH]; intros st names st' H u Hu; simpl in H; [destruct Hu|].
  destruct (rl_apply rn st s) as [st1 s'] eqn:E. destruct (rl_apply_memo rn st s st1 s' Hn E) as [A1 _].
  assert (H' : exists names', relabel_check rn st1 t names' = (st', Ok tt)).
  { destruct (name_eqb s s'); [eauto|]. destruct (memn s' names); [discriminate|eauto]. }
  destruct H' as (names' & H'). destruct Hu as [<-|Hu]; [exists s'; eapply check_grows; eauto | eapply IH; eauto].
Qed.

(* for a dict renaming the remembered name is m.get(s, s) *)
Definition um (m : list (name * name)) (s : name) : name := match assoc s m with Some t => t | None => s end.
Definition memo_um (m : list (name * name)) (st : rl) : Prop := forall x v, assoc x (rl_memo st) = Some v -> v = um m x.
Lemma rl_apply_um m st s : memo_um m st -> memo_um m (fst (rl_apply (RMap m) st s)).
Proof.
  intros Hm. cbn [rl_apply]. destruct (assoc s (rl_memo st)) as [t0|] eqn:A; [exact Hm|].
  intros x v Hx. simpl in Hx. rewrite assoc_app in Hx.
  destruct (assoc x (rl_memo st)) as [v0|] eqn:Ax; [injection Hx as <-; now apply Hm|].
  simpl in Hx. destruct (name_eqb_spec x s) as [->|_]; [|discriminate]. now injection Hx as <-.
Qed.

(* the second pass finds every simplex in the memo: the memo stays, and the mapping returned lists the
   simplices whose name changes *)
Lemma relabel_do_hits rn : rn <> RNone -> forall ss r st mapping r' st' x,
  (forall s, In s ss -> exists t, assoc s (rl_memo st) = Some t) -> relabel_do r rn st ss mapping = (r', st', x) ->
  st' = st /\ forall mapping', x = Ok mapping' -> mapping' = mapping ++ changed st ss.
Proof.
  intros Hn. induction ss as [|s ss IH]; intros r st mapping r' st' x Hm H; cbn [relabel_do] in H.
  - injection H as _ <- <-. split; [reflexivity|]. intros ? [= <-]. now rewrite app_nil_r.
  - destruct (Hm s (or_introl eq_refl)) as (t & At). rewrite (rl_apply_hit rn st s t Hn At) in H.
    rewrite changed_cons. replace (memo_of st s) with t by (unfold memo_of; now rewrite At).
    assert (Hm' : forall u, In u ss -> exists v, assoc u (rl_memo st) = Some v) by (intros u Hu; apply Hm; now right).
    destruct (name_eqb s t); [exact (IH _ _ _ _ _ _ Hm' H)|].
    destruct (relabelSimplex r s t) as [r1 [[]|e]].
    + rewrite app_assoc. exact (IH _ _ _ _ _ _ Hm' H).
    + injection H as _ <- <-. split; [reflexivity|discriminate].
Qed.

(* after the simplices in `done` the listings of r0 are renamed by psi st done *)
Section Do.
  Variables (st : rl) (r0 : rep).
  Hypothesis P0 : pinv r0.

  (* a simplex x <> s of r0 is not called s after the renames so far, because s still is *)
  Lemma psi_step done s r : pinv r -> renamed_by (psi st done) r0 r -> ~ In s done -> containsSimplex r0 s = true ->
    forall x, containsSimplex r0 x = true -> ren1 s (memo_of st s) (psi st done x) = psi st (done ++ [s]) x.
  Proof.
    intros P R Hs Cs x Cx. rewrite psi_snoc. unfold ren1. destruct (name_eqb_spec x s) as [->|Nx].
    - now rewrite (psi_fresh st done s Hs), name_eqb_refl.
    - rewrite name_eqb_neq; [reflexivity|]. intros E. apply Nx.
      apply (renamed_inj (psi st done) r0 r P0 P R x s Cx Cs). now rewrite (psi_fresh st done s Hs).
  Qed.

  Lemma do_phi rn : rn <> RNone -> forall rest done r mapping r' st' mapping',
    NoDup (done ++ rest) -> (forall s, In s rest -> exists t, assoc s (rl_memo st) = Some t) ->
    (forall s, In s rest -> containsSimplex r0 s = true) -> pinv r -> renamed_by (psi st done) r0 r ->
    relabel_do r rn st rest mapping = (r', st', Ok mapping') -> renamed_by (psi st (done ++ rest)) r0 r'.
  Proof.
    intros Hn. induction rest as [|s rest IH]; intros done r mapping r' st' mapping' Hnd Hm Hin P R H; cbn [relabel_do] in H.
    - injection H as <- _ _. now rewrite app_nil_r.
    - destruct (Hm s (or_introl eq_refl)) as (t & At). rewrite (rl_apply_hit rn st s t Hn At) in H.
      assert (Hs : ~ In s done) by (apply NoDup_remove_2 in Hnd; intros Hd; apply Hnd, in_or_app; now left).
      pose proof (psi_step done s r P R Hs (Hin s (or_introl eq_refl))) as St.
      replace (memo_of st s) with t in St by (unfold memo_of; now rewrite At).
      change (done ++ s :: rest) with (done ++ [s] ++ rest) in *. rewrite app_assoc in *.
      assert (Hm' : forall u, In u rest -> exists v, assoc u (rl_memo st) = Some v) by (intros u Hu; apply Hm; now right).
      assert (Hin' : forall u, In u rest -> containsSimplex r0 u = true) by (intros u Hu; apply Hin; now right).
      destruct (name_eqb_spec s t) as [Est|Nst].
      + subst t. apply (IH (done ++ [s]) r mapping r' st' mapping' Hnd Hm' Hin' P); [|exact H].
        apply (renamed_ext (psi st done)); [exact P0| |exact R]. intros x Cx. now rewrite <- (St x Cx), ren1_same.
      + destruct (relabelSimplex r s t) as [r1 [[]|e]] eqn:E; [|discriminate].
        apply (IH (done ++ [s]) r1 (mapping ++ [(s, t)]) r' st' mapping' Hnd Hm' Hin'); [| |exact H].
        * eapply relabelSimplex_pinv; eauto.
        * apply (renamed_ext (fun x => ren1 s t (psi st done x))); [exact P0|exact St|].
          eapply renamed_trans; [exact R|]. now apply relabelSimplex_renames.
  Qed.
End Do.

(* C15: a completed relabel renames every listing by phi = "the name the renaming gave, itself otherwise",
   leaves matrices and number of orders alone, and returns exactly the changed names in listing order *)
Theorem relabel_phi r rn r' st mapping : pinv r -> rn <> RNone -> relabel r rn = (r', st, Ok mapping) ->
  renamed_by (memo_of st) r r' /\
  mapping = changed st (simplices r false) /\
  (forall s, In s (simplices r false) -> exists t, assoc s (rl_memo st) = Some t).
Proof.
  intros P Hrn H. unfold relabel in H.
  destruct (relabel_check rn rl0 (simplices r false) (simplices r false)) as [st0 [[]|e]] eqn:Ec; [|discriminate].
  pose proof (check_memo rn Hrn _ _ _ _ Ec) as Hall.
  destruct (relabel_do_hits rn Hrn _ _ _ _ _ _ _ Hall H) as [<- Hmap].
  split; [|split; [exact (Hmap _ eq_refl) | exact Hall]].
  apply (renamed_ext (psi st (simplices r false))); [exact P| |].
  - intros x Cx. unfold psi. now rewrite (proj2 (memn_In x _) (proj2 (In_simplices_iff r x P) Cx)).
  - apply (do_phi st r P rn Hrn (simplices r false) [] r [] r' st mapping); auto.
    + now apply simplices_nodup.
    + intros s Hs. now apply (In_simplices_iff r s P).
    + apply renamed_refl.
Qed.

(* for a dict renaming: phi is m.get(s, s) on every simplex *)
Theorem relabel_phi_dict r m r' st mapping : pinv r -> relabel r (RMap m) = (r', st, Ok mapping) ->
  forall s, In s (simplices r false) -> memo_of st s = um m s.
Proof.
  intros P H s Hs. unfold relabel in H.
  destruct (relabel_check (RMap m) rl0 (simplices r false) (simplices r false)) as [st0 [[]|e]] eqn:Ec; [|discriminate].
  pose proof (check_memo (RMap m) ltac:(discriminate) _ _ _ _ Ec) as Hall.
  destruct (relabel_do_hits (RMap m) ltac:(discriminate) _ _ _ _ _ _ _ Hall H) as [<- _].
  destruct (Hall s Hs) as (t & At). unfold memo_of. rewrite At.
  apply (relabel_check_inv (memo_um m) (RMap m) (rl_apply_um m)) in Ec; [now apply Ec | intros x v Hx; discriminate].
Qed.
