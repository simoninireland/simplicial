(* EulerCompose.v -- C19, additivity on the code's own union: for complexes a and c that share no name, when
   a.compose(c) succeeds the Euler integral of the result is the sum of the integrals of a and c -- the metric of a
   point of the result is read from a new dictionary that holds what the operand's dictionary holds (ComposeAttrs),
   the points of a simplex of the result are those it has in its operand (VIso2), and the integral is the
   simplex-wise sum (EulerInt).  Plain Coq. *)
From Coq Require Import String ZArith Bool List Permutation.
From SV Require Import Names NamesFacts Rep Complex Homology RepInv VInv VSets Gen EulerInt ComposeProofs ComposeAttrs VIso2 EulerAdd.
Import ListNotations.

(* the fold inside EulerInt.minm *)
Definition fold_min (f : name -> Z) (p : name) (l : list name) : Z := fold_right (fun q acc => Z.min (f q) acc) (f p) l.

Lemma fold_min_le f p l j : (j <= fold_min f p l)%Z <-> forall q, In q (p :: l) -> (j <= f q)%Z.
Proof.
  unfold fold_min. rewrite <- Z.leb_le, leb_fold_min, andb_true_iff, forallb_forall, Z.leb_le. split.
  - intros [H1 H2] q [<-|Hq]; [exact H2 | apply Z.leb_le, H1, Hq].
  - intros H. split; [intros q Hq; apply Z.leb_le, H; now right | apply H; now left].
Qed.

Lemma fold_min_sameset f g p l p' l' : (forall q, In q (p :: l) <-> In q (p' :: l')) -> (forall q, In q (p :: l) -> f q = g q) ->
  fold_min f p l = fold_min g p' l'.
Proof.
  intros Hs Hfg. apply Z.le_antisymm.
  - apply (proj2 (fold_min_le g p' l' _)). intros q Hq. apply Hs in Hq. rewrite <- (Hfg q Hq).
    apply (proj1 (fold_min_le f p l _) (Z.le_refl _)). exact Hq.
  - apply (proj2 (fold_min_le f p l _)). intros q Hq. rewrite (Hfg q Hq). apply Hs in Hq.
    apply (proj1 (fold_min_le g p' l' _) (Z.le_refl _)). exact Hq.
Qed.

Lemma minm_sameset hp hp2 at_ dflt r r2 t : sameset (basisOf r t) (basisOf r2 t) -> basisOf r t <> [] ->
  (forall q, In q (basisOf r t) -> m hp at_ dflt r q = m hp2 at_ dflt r2 q) ->
  minm hp at_ dflt r t = minm hp2 at_ dflt r2 t.
Proof.
  intros Hs Hne Hm. unfold minm. destruct (basisOf r t) as [|p l] eqn:E1; [contradiction|].
  destruct (basisOf r2 t) as [|p' l'] eqn:E2.
  - exfalso. destruct (proj1 (Hs p) (or_introl eq_refl)).
  - apply (fold_min_sameset (m hp at_ dflt r) (m hp2 at_ dflt r2) p l p' l'); [exact Hs|exact Hm].
Qed.

Section ComposeIntegral.
  Variables (a c : rep) (uid : nat) (hp hp' : heap) (d : rep) (at_ : string) (dflt : Z).
  Hypothesis Va : vinv a.
  Hypothesis Vc : vinv c.
  Hypothesis Oa : forall s h, assoc s (r_attr a) = Some h -> fst h <> uid.
  Hypothesis Oc : forall s h, assoc s (r_attr c) = Some h -> fst h <> uid.
  Hypothesis Hu0 : uid <> 0.
  Hypothesis Disj : forall s, containsSimplex a s = true -> containsSimplex c s = false.
  Hypothesis Na : forall s, containsSimplex a s = true -> exists z, metric hp a at_ dflt s = Ok z.
  Hypothesis Nc : forall s, containsSimplex c s = true -> exists z, metric hp c at_ dflt s = Ok z.
  Hypothesis Ga : forall p i, assoc p (r_simp a) = Some (0, i) -> (0 <= m hp at_ dflt a p)%Z.
  Hypothesis Gc : forall p i, assoc p (r_simp c) = Some (0, i) -> (0 <= m hp at_ dflt c p)%Z.
  Hypothesis H : compose hp a c None uid = (hp', d, Ok tt).

  Let Pa : pinv a := vinv_pinv a Va.
  Let Pc : pinv c := vinv_pinv c Vc.

  Definition from (s : name) : rep := if containsSimplex a s then a else c.

  Lemma from_vinv s : vinv (from s).
  Proof. unfold from. destruct (containsSimplex a s); assumption. Qed.

  Lemma result_mem s : containsSimplex d s = containsSimplex a s || containsSimplex c s.
  Proof. destruct (compose_is_union hp a c uid hp' d Pa Pc H) as (_ & Hmem & _). apply Hmem. Qed.

  Lemma from_contains s : containsSimplex d s = true -> containsSimplex (from s) s = true.
  Proof. rewrite result_mem. unfold from. destruct (containsSimplex a s) eqn:E; auto. Qed.

  Lemma in_result s : containsSimplex (from s) s = true -> containsSimplex d s = true.
  Proof. rewrite result_mem. unfold from. destruct (containsSimplex a s) eqn:E; [reflexivity|]. intros ->. reflexivity. Qed.

  Lemma metric_result s : containsSimplex d s = true -> metric hp' d at_ dflt s = metric hp (from s) at_ dflt s.
  Proof.
    intros Cd. destruct (compose_attrs a c uid hp Pa Pc Oa Oc Hu0 hp' d H) as [Hval _].
    destruct (Hval s Cd) as (h' & Ah & _ & Hg). unfold metric at 1. rewrite Ah, Hg.
    apply from_contains in Cd. unfold from in *. destruct (containsSimplex a s) eqn:Csa.
    - rewrite (Disj s Csa). destruct (Na s Csa) as (z & Ez). unfold metric in *. unfold cell.
      destruct (assoc s (r_attr a)); [reflexivity|discriminate].
    - rewrite Cd. destruct (Nc s Cd) as (z & Ez). unfold metric in *. unfold cell.
      destruct (assoc s (r_attr c)); [reflexivity|discriminate].
  Qed.

  Lemma order_result s : containsSimplex d s = true -> orderOf d s = orderOf (from s) s.
  Proof.
    intros Cd. destruct (compose_vinv hp a c uid hp' d Va Vc H) as (Vd & _).
    destruct (compose_is_union hp a c uid hp' d Pa Pc H) as (_ & _ & HfA & HfC). pose proof (from_contains s Cd) as Cf.
    apply same_faces_order; [exact (vinv_cinv _ (from_vinv s)) | exact (vinv_cinv d Vd) | exact Cf | exact Cd|].
    unfold from in *. destruct (containsSimplex a s) eqn:E; [now apply HfA | now apply HfC].
  Qed.

  Lemma from_point s q : containsSimplex (from s) s = true -> In q (basisOf (from s) s) -> from q = from s.
  Proof.
    intros Cs Hq. apply (containsSimplex_assoc (from s)) in Cs. destruct Cs as (k & j & As).
    destruct (a_basis_point (from s) (from_vinv s) s k j q As Hq) as (i & Aq).
    assert (Cq : containsSimplex (from s) q = true) by exact (assoc_contains _ _ _ _ Aq).
    unfold from in *. destruct (containsSimplex a s); [now rewrite Cq|].
    destruct (containsSimplex a q) eqn:Cqa; [rewrite (Disj q Cqa) in Cq; discriminate | reflexivity].
  Qed.

  Theorem integrate_compose_disjoint :
    exists za zc, integrate hp a at_ dflt = Ok za /\ integrate hp c at_ dflt = Ok zc /\
                  integrate hp' d at_ dflt = Ok (za + zc)%Z.
  Proof.
    destruct (compose_vinv hp a c uid hp' d Va Vc H) as (Vd & Hb).
    pose proof (vinv_pinv d Vd) as Pd.
    assert (Nf : forall s, containsSimplex (from s) s = true -> exists z, metric hp (from s) at_ dflt s = Ok z).
    { intros s. unfold from. destruct (containsSimplex a s); [apply Na | apply Nc]. }
    assert (Nd : forall s, containsSimplex d s = true -> exists z, metric hp' d at_ dflt s = Ok z).
    { intros s Cd. rewrite (metric_result s Cd). apply Nf, from_contains, Cd. }
    assert (Md : forall s, containsSimplex d s = true -> m hp' at_ dflt d s = m hp at_ dflt (from s) s).
    { intros s Cd. unfold m, metric0. now rewrite (metric_result s Cd). }
    assert (Gd : forall p i, assoc p (r_simp d) = Some (0, i) -> (0 <= m hp' at_ dflt d p)%Z).
    { intros p i Ap. assert (Cd : containsSimplex d p = true) by exact (assoc_contains _ _ _ _ Ap).
      rewrite (Md p Cd). pose proof (order_result p Cd) as O. unfold orderOf at 1 in O. rewrite Ap in O.
      symmetry in O. apply orderOf_assoc in O. destruct O as (j & A). revert A. unfold from.
      destruct (containsSimplex a p); [apply Ga | apply Gc]. }
    (* the simplices of the result: those of a and those of c, each once *)
    assert (Hperm : Permutation (simplices d false) (simplices a false ++ simplices c false)).
    { apply NoDup_Permutation.
      - now apply simplices_nodup.
      - apply NoDup_app'; [now apply simplices_nodup|now apply simplices_nodup|].
        intros x Hx Hy. apply (In_simplices_iff a x Pa) in Hx. apply (In_simplices_iff c x Pc) in Hy. rewrite (Disj x Hx) in Hy. discriminate.
      - intros x. rewrite in_app_iff, (In_simplices_iff d x Pd), (In_simplices_iff a x Pa), (In_simplices_iff c x Pc), result_mem.
        apply orb_true_iff. }
    (* a simplex of the result has the order and the least point metric it has in its operand *)
    assert (Term : forall s, containsSimplex d s = true ->
              ord d s = ord (from s) s /\ minm hp' at_ dflt d s = minm hp at_ dflt (from s) s).
    { intros s Cd. pose proof Cd as Ad. apply (containsSimplex_assoc d) in Ad. destruct Ad as (k & j & Ad). split.
      - destruct (proj1 (orderOf_assoc (from s) s k)) as (j' & Af); [rewrite <- (order_result s Cd); apply orderOf_assoc; eauto|].
        now rewrite (ord_of _ _ _ _ Ad), (ord_of _ _ _ _ Af).
      - pose proof (Hb s Cd) as Hs. fold (from s) in Hs.
        assert (Hne : basisOf d s <> []) by (intros E; pose proof (v_card d Vd s k j Ad) as X; rewrite E in X; discriminate).
        apply (minm_sameset hp' hp at_ dflt d (from s) s Hs Hne).
        intros q Hq. destruct (a_basis_point d Vd s k j q Ad Hq) as (iq & Aq).
        assert (Cq : containsSimplex d q = true) by exact (assoc_contains _ _ _ _ Aq).
        rewrite (Md q Cq). f_equal. apply from_point; [exact (from_contains s Cd) | now apply Hs]. }
    apply (integrate_additive_heaps hp' hp hp at_ dflt d a c Vd Va Vc Nd Na Nc Gd Ga Gc Hperm); intros s Hs.
    - apply (In_simplices_iff a s Pa) in Hs. assert (Cd : containsSimplex d s = true) by (rewrite result_mem, Hs; reflexivity).
      pose proof (Term s Cd) as T. unfold from in T. now rewrite Hs in T.
    - apply (In_simplices_iff c s Pc) in Hs. assert (Cd : containsSimplex d s = true) by (rewrite result_mem, Hs; apply orb_true_r).
      pose proof (Term s Cd) as T. unfold from in T.
      destruct (containsSimplex a s) eqn:E; [rewrite (Disj s E) in Hs; discriminate | exact T].
  Qed.
End ComposeIntegral.
