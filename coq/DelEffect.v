(* DelEffect.v -- the exact effect of forceDeleteSimplex on a complex satisfying the shape
   invariant: the simplex goes, every other simplex stays with its order; faces and cofaces of the
   others lose exactly the deleted simplex.  Plain Coq. *)
From Coq Require Import String ZArith Bool Arith List Lia.
From SV Require Import Names NamesFacts ListFacts Rep Fresh Complex Atomic RepInv Shapes Incidence AddEffect.
Import ListNotations.
Open Scope nat_scope.

Lemma getcol_del_col i m j : getcol j (del_col i m) = getcol (if j <? i then j else S j) m.
Proof. unfold getcol, del_col. simpl. rewrite nth_remove_nth. now destruct (j <? i). Qed.
Lemma getcol_del_row i m j : j < ncols m -> getcol j (del_row i m) = remove_nth i (getcol j m).
Proof.
  intros H. unfold getcol, del_row, ncols in *. simpl.
  rewrite (nth_indep _ [] (remove_nth i [])) by (now rewrite map_length). apply map_nth.
Qed.
Lemma getrow_del_col i m t : getrow t (del_col i m) = remove_nth i (getrow t m).
Proof.
  unfold getrow, del_col. simpl. generalize (mcols m). intros l. revert i.
  induction l as [|c l IH]; intros [|i]; simpl; auto. now rewrite IH.
Qed.
Lemma getrow_del_row i m t : getrow t (del_row i m) = getrow (if t <? i then t else S t) m.
Proof.
  unfold getrow, del_row. simpl. rewrite map_map. apply map_ext. intros c. rewrite nth_remove_nth. now destruct (t <? i).
Qed.

Lemma noc_remove_false idx : forall col i, nth i col false = false ->
  names_of_col (remove_nth i idx) (remove_nth i col) = names_of_col idx col.
Proof.
  unfold names_of_col. induction idx as [|a idx IH]; intros col i H.
  - destruct i; reflexivity.
  - destruct col as [|b col]; [destruct i; simpl; [now destruct idx | reflexivity]|].
    destruct i as [|i]; simpl in *.
    + subst b. reflexivity.
    + destruct b; simpl; [f_equal|]; now apply IH.
Qed.

Lemma In_noc_remove idx col i u : NoDup idx -> length col = length idx ->
  (In u (names_of_col (remove_nth i idx) (remove_nth i col)) <->
   In u (names_of_col idx col) /\ nth_error idx i <> Some u).
Proof.
  intros Hnd Hlen. rewrite !In_names_of_col. split.
  - intros (j & H1 & H2). rewrite nth_error_remove_nth in H1. rewrite nth_error_remove_nth in H2.
    destruct (j <? i) eqn:E.
    + split; [eauto|]. intros Hi. apply Nat.ltb_lt in E.
      assert (j = i) by (eapply NoDup_nth_error_inj; eauto; congruence). lia.
    + split; [eauto|]. intros Hi. apply Nat.ltb_ge in E.
      assert (S j = i) by (eapply NoDup_nth_error_inj; eauto; congruence). lia.
  - intros ((j & H1 & H2) & Hne).
    destruct (Nat.lt_trichotomy j i) as [Hlt|[->|Hgt]].
    + exists j. rewrite !nth_error_remove_nth. apply Nat.ltb_lt in Hlt. now rewrite Hlt.
    + congruence.
    + destruct j as [|j]; [lia|]. exists j. rewrite !nth_error_remove_nth.
      rewrite (ltb_false j) by lia. auto.
Qed.

Section Del.
  Variables (r : rep) (s : name) (k i : nat).
  Hypothesis Hinv : sinv r.
  Hypothesis As : assoc s (r_simp r) = Some (k, i).

  Let r' := fst (forceDeleteSimplex r s).
  Let dropped := (S k =? r_nord r) && (length (remove_nth i (idxk r k)) =? 0).

  Lemma del_ok : forceDeleteSimplex r s = (r', Ok tt).
  Proof.
    unfold r'. destruct (forceDeleteSimplex r s) as [r1 [[]|e]] eqn:E; [reflexivity|].
    exfalso. unfold forceDeleteSimplex in E. rewrite As in E. destruct (_ && _) in E; discriminate.
  Qed.

  Lemma d_sinv : sinv r'.
  Proof. eapply forceDeleteSimplex_sinv; [exact Hinv | apply del_ok]. Qed.

  Lemma d_k : k < r_nord r /\ nth_error (idxk r k) i = Some s /\ i < length (idxk r k) /\ k < length (r_idx r).
  Proof.
    destruct (pinv_pos_lt r s k i (s_p r Hinv) As) as (Hk & Hi & Hl).
    apply (pinv_at r s k i (s_p r Hinv)) in As. auto.
  Qed.

  Lemma d_idx j : idxk r' j = if j =? k then remove_nth i (idxk r k) else idxk r j.
  Proof. apply (forceDelete_idx r s k i (s_p r Hinv) As). Qed.

  Lemma d_nord : r_nord r' = if dropped then k else r_nord r.
  Proof. apply (forceDelete_nord r s k i (s_p r Hinv) As). Qed.

  Definition newpos (kt it : nat) : nat := if (kt =? k) && (i <? it) then it - 1 else it.

  Lemma d_pos t kt it : t <> s -> assoc t (r_simp r) = Some (kt, it) ->
    kt < r_nord r' /\ assoc t (r_simp r') = Some (kt, newpos kt it) /\ (kt = k -> it <> i).
  Proof.
    intros Hne At.
    assert (At' : assoc t (r_simp r') = Some (kt, newpos kt it)).
    { unfold r'. now rewrite (forceDelete_assoc r s k i (s_p r Hinv) As), (name_eqb_neq t s), At. }
    split; [apply (pinv_pos_lt r' t kt _ (s_p r' d_sinv) At')|]. split; [exact At'|].
    intros -> ->. apply (pinv_at r _ k i (s_p r Hinv)) in At, As. congruence.
  Qed.

  Lemma d_gone : containsSimplex r' s = false.
  Proof.
    apply containsSimplex_false_assoc. unfold r'.
    now rewrite (forceDelete_assoc r s k i (s_p r Hinv) As), name_eqb_refl.
  Qed.

  Lemma d_sub t : containsSimplex r' t = true -> containsSimplex r t = true /\ t <> s.
  Proof.
    intros H. apply containsSimplex_assoc in H. destruct H as (k2 & i2 & H).
    unfold r' in H. rewrite (forceDelete_assoc r s k i (s_p r Hinv) As) in H.
    destruct (name_eqb_spec t s); [discriminate|]. split; [|assumption].
    unfold containsSimplex. now destruct (assoc t (r_simp r)).
  Qed.

  Lemma face_order t u kt it : assoc t (r_simp r) = Some (kt, it) -> In u (faces r t) ->
    exists kt' iu, kt = S kt' /\ assoc u (r_simp r) = Some (kt', iu).
  Proof.
    intros At H. destruct kt as [|kt']; [unfold faces in H; rewrite At in H; destruct H|].
    destruct (face_is_simplex r Hinv t u kt' it At H) as (iu & Au). eauto.
  Qed.

  Theorem d_faces t kt it : t <> s -> assoc t (r_simp r) = Some (kt, it) ->
    (forall u, In u (faces r' t) <-> In u (faces r t) /\ u <> s) /\
    (~ In s (faces r t) -> faces r' t = faces r t).
  Proof.
    intros Hne At. destruct (d_pos t kt it Hne At) as (Hkt' & At' & Hnei).
    destruct (pinv_pos_lt r t kt it (s_p r Hinv) At) as (Hkt & Hitl & _).
    destruct d_k as (Hk & Hsi & Hil & Hl).
    destruct kt as [|kt'].
    { unfold faces. rewrite At', At. split; [intros u; simpl; tauto | reflexivity]. }
    assert (Hfs : kt' <> k -> forall u, In u (faces r t) -> u <> s).
    { intros Hk' u Hu ->. destruct (face_order t s (S kt') it At Hu) as (k2 & iu & Ek & Au).
      rewrite As in Au. injection Au as -> _. lia. }
    assert (Hsame : faces r' t = faces r t -> kt' <> k ->
              (forall u, In u (faces r' t) <-> In u (faces r t) /\ u <> s) /\ (~ In s (faces r t) -> faces r' t = faces r t)).
    { intros E Hk'. split; [|intros _; exact E]. intros u. rewrite E. split; [|tauto]. intros Hu. split; [exact Hu | now apply (Hfs Hk')]. }
    assert (Hraw : faces r' t = names_of_col (idxk r' kt') (getcol (newpos (S kt') it) (bndk r' (S kt')))).
    { unfold faces. rewrite At'. reflexivity. }
    assert (Hold : faces r t = names_of_col (idxk r kt') (getcol it (bndk r (S kt')))).
    { unfold faces. rewrite At. reflexivity. }
    pose proof (sinv_bnd_dims r kt' Hinv Hkt) as Hdn.
    destruct (forceDelete_mats r s k i Hinv As) as (_ & _ & Hbnd & _). fold r' in Hbnd.
    rewrite d_idx, Hbnd in Hraw by lia. unfold newpos in Hraw.
    destruct (Nat.eqb_spec (S kt') k) as [E1|E1].
    - (* same order as s: a column to the left or right of the deleted one *)
      rewrite (eqb_false kt'), getcol_del_col in Hraw by lia. cbn [andb] in Hraw. specialize (Hnei E1).
      apply Hsame; [|lia]. rewrite Hraw, Hold, E1. do 2 f_equal.
      destruct (Nat.ltb_spec i it); [rewrite ltb_false by lia | rewrite ltb_true by lia]; lia.
    - cbn [andb] in Hraw. destruct (Nat.eqb_spec (S kt') (S k)) as [E2|E2].
      + (* one order above s: row i goes *)
        injection E2 as ->. rewrite Nat.eqb_refl in Hraw.
        assert (Hc : it < ncols (bndk r (S k))) by (destruct Hdn as (_ & _ & Hc); lia).
        rewrite (getcol_del_row _ _ _ Hc) in Hraw.
        assert (Hnd : NoDup (idxk r k)) by apply pinv_nodup_order, Hinv.
        assert (Hlen : length (getcol it (bndk r (S k))) = length (idxk r k)) by (apply (length_getcol _ _ _ _ Hdn); exact Hitl).
        split.
        * intros u. rewrite Hraw, Hold, (In_noc_remove _ _ _ _ Hnd Hlen). rewrite Hsi. split; intros [H1 H2]; split; auto; congruence.
        * intros Hns. rewrite Hraw, Hold. apply noc_remove_false.
          destruct (nth i (getcol it (bndk r (S k))) false) eqn:En; [|reflexivity]. exfalso. apply Hns.
          rewrite Hold. apply In_names_of_col. exists i. split; [exact Hsi|].
          rewrite (nth_error_nth' _ false) by lia. now rewrite En.
      + (* elsewhere: nothing moves *)
        rewrite (eqb_false kt') in Hraw by lia. apply Hsame; [|lia]. now rewrite Hraw, Hold.
  Qed.

  Theorem d_cofaces t : t <> s -> containsSimplex r t = true ->
    forall u, In u (cofaces r' t) <-> In u (cofaces r t) /\ u <> s.
  Proof.
    intros Hne Ht u.
    rewrite <- (cofaces_inverse_of_faces r' d_sinv u t), <- (cofaces_inverse_of_faces r Hinv u t).
    assert (Hnof : forall r0 v, containsSimplex r0 v = false -> ~ In t (faces r0 v)).
    { intros r0 v Hv. apply containsSimplex_false_assoc in Hv. unfold faces. now rewrite Hv. }
    destruct (name_eqb_spec u s) as [->|Hus].
    - split; [|tauto]. intros H. now apply (Hnof r' s d_gone) in H.
    - destruct (assoc u (r_simp r)) as [[ku iu]|] eqn:Au.
      + destruct (d_faces u ku iu Hus Au) as [Hf _]. rewrite Hf. tauto.
      + apply containsSimplex_false_assoc in Au. split; [|intros [H _]; now apply Hnof in H].
        intros H. exfalso. apply (Hnof r' u); [|exact H].
        destruct (containsSimplex r' u) eqn:E; [|reflexivity]. apply d_sub in E. destruct E as [E _]. congruence.
  Qed.
End Del.
