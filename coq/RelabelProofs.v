(* RelabelProofs.v -- relabelling changes names and nothing else (C15): one rename carries the
   listings pointwise and leaves every matrix alone; the user's function is called at most once
   per simplex; the sequential algorithm rejects a forward chain (refuted by a witness).  Plain Coq. *)
From Coq Require Import String ZArith Bool Arith List Lia.
From SV Require Import Names NamesFacts ListFacts Rep Complex Atomic RepInv.
Import ListNotations.
Open Scope nat_scope.

Definition ren1 (s q x : name) : name := if name_eqb x s then q else x.

Lemma ren1_same s x : ren1 s s x = x.
Proof. unfold ren1. now destruct (name_eqb_spec x s). Qed.

Lemma map_ren_absent l s q : ~ In s l -> map (ren1 s q) l = l.
Proof.
  intros H. rewrite <- (map_id l) at 2. apply map_ext_in. intros x Hx. unfold ren1.
  rewrite name_eqb_neq; auto. intros ->. contradiction.
Qed.

Lemma set_nth_map_ren l : forall i s q, NoDup l -> nth_error l i = Some s -> set_nth i q l = map (ren1 s q) l.
Proof.
  induction l as [|h t IH]; intros [|i] s q Hnd H; simpl in *; try discriminate;
    inversion Hnd as [|? ? Hh Ht]; subst; unfold ren1 at 1.
  - injection H as ->. rewrite name_eqb_refl, map_ren_absent; auto.
  - rewrite (IH i s q Ht H), name_eqb_neq; auto. intros ->. apply Hh. eapply nth_error_In; eauto.
Qed.

(* one accepted rename: same matrices, same number of orders, every listing renamed pointwise (so
   every simplex keeps its order and its position), the attribute dictionary moves with the name *)
Theorem relabelSimplex_carries r s q r' : pinv r -> relabelSimplex r s q = (r', Ok tt) ->
  r_bnd r' = r_bnd r /\ r_bas r' = r_bas r /\ r_nord r' = r_nord r /\
  (forall k, idxk r' k = map (ren1 s q) (idxk r k)) /\
  (forall h, assoc s (r_attr r) = Some h -> assoc s (r_attr r) = Some h -> In (q, h) (r_attr r')).
Proof.
  intros Hinv H. unfold relabelSimplex in H. destruct (containsSimplex r q) eqn:Cq; [discriminate|].
  destruct (assoc s (r_simp r)) as [[k i]|] eqn:As; [|discriminate]. injection H as <-. simpl.
  pose proof Hinv as [K P St L]. destruct (proj1 (P s k i) As) as [Hk Hn].
  repeat split; auto.
  - intros k0. unfold idxk. simpl. rewrite nth_upd_nth.
    assert (Hkl : k <? length (r_idx r) = true) by (apply Nat.ltb_lt; lia). rewrite Hkl, andb_true_r.
    destruct (k0 =? k) eqn:E.
    + apply Nat.eqb_eq in E. subst k0. apply set_nth_map_ren; auto. now apply pinv_nodup_order.
    + symmetry. apply map_ren_absent. intros Hin. apply nth_error_In' in Hin. destruct Hin as [j Hj].
      destruct (pinv_unique_pos r s k i k0 j Hinv Hn Hj) as [-> _]. now rewrite Nat.eqb_refl in E.
  - intros h Hh _. rewrite Hh. apply in_or_app. right. now left.
Qed.

(* the faces / cofaces / basis are read from the unchanged matrices against the renamed listings *)
Lemma names_of_col_map (f : name -> name) names col : names_of_col (map f names) col = map f (names_of_col names col).
Proof.
  unfold names_of_col. revert col. induction names as [|n t IH]; intros [|b col]; simpl; auto.
  destruct b; simpl; now rewrite IH.
Qed.

(* the memo of _createRelabelling: the user's function is called at most once per simplex, and every
   call is recorded in the memo *)
Definition rl_ok (st : rl) : Prop :=
  NoDup (rl_calls st) /\ forall s, In s (rl_calls st) -> assoc s (rl_memo st) <> None.

Lemma rl_ok0 : rl_ok rl0.
Proof. split; [constructor | intros s []]. Qed.

Lemma rl_apply_ok rn st s : rl_ok st -> rl_ok (fst (rl_apply rn st s)).
Proof.
  intros [Hnd Hm]. unfold rl_apply. destruct rn as [|m|f].
  - split; auto.
  - destruct (assoc s (rl_memo st)) eqn:A; [split; auto|]. unfold rl_ok. cbn [fst rl_calls rl_memo]. split; auto.
    intros t Ht. rewrite assoc_app. specialize (Hm t Ht). destruct (assoc t (rl_memo st)); congruence.
  - destruct (assoc s (rl_memo st)) eqn:A; [split; auto|]. unfold rl_ok. cbn [fst rl_calls rl_memo]. split.
    + apply NoDup_app_snoc; auto. intros Hin. apply Hm in Hin. congruence.
    + intros t Ht. rewrite assoc_app. apply in_app_or in Ht. destruct Ht as [Ht|[<-|[]]].
      * specialize (Hm t Ht). destruct (assoc t (rl_memo st)); congruence.
      * rewrite A. cbn [assoc]. rewrite name_eqb_refl. discriminate.
Qed.

(* both passes of relabel() are sequences of memo lookups, the second interleaved with accepted single
   renames (a rejected one changes nothing and ends the loop): what those steps keep, the passes keep *)
Lemma relabel_check_inv (Q : rl -> Prop) rn : (forall st s, Q st -> Q (fst (rl_apply rn st s))) ->
  forall ss st names st' x, Q st -> relabel_check rn st ss names = (st', x) -> Q st'.
Proof.
  intros Ha. induction ss as [|s t IH]; intros st names st' x HQ H; simpl in H.
  - now injection H as <- _.
  - pose proof (Ha st s HQ) as H1. destruct (rl_apply rn st s) as [st1 s'].
    destruct (name_eqb s s'); [eapply IH; eauto|].
    destruct (memn s' names); [now injection H as <- _ | eapply IH; eauto].
Qed.

Lemma relabel_do_inv (J : rep -> rl -> Prop) rn :
  (forall r st s, J r st -> J r (fst (rl_apply rn st s))) ->
  (forall r st s q r1, J r st -> relabelSimplex r s q = (r1, Ok tt) -> J r1 st) ->
  forall ss r st mapping r' st' x, J r st -> relabel_do r rn st ss mapping = (r', st', x) -> J r' st'.
Proof.
  intros Ha Hr. induction ss as [|s t IH]; intros r st mapping r' st' x HJ H; simpl in H.
  - now injection H as <- <- _.
  - pose proof (Ha r st s HJ) as H1. destruct (rl_apply rn st s) as [st1 s'].
    destruct (name_eqb s s'); [eapply IH; eauto|].
    destruct (relabelSimplex r s s') as [r1 [[]|e]] eqn:E.
    + eapply IH; [|exact H]. eapply Hr; eauto.
    + injection H as <- <- _. apply relabelSimplex_atomic in E. now destruct E as [-> _].
Qed.

Theorem relabel_called_once r rn r' st x : relabel r rn = (r', st, x) -> NoDup (rl_calls st).
Proof.
  unfold relabel. intros H.
  destruct (relabel_check rn rl0 (simplices r false) (simplices r false)) as [st0 [[]|e]] eqn:E;
    apply (relabel_check_inv rl_ok rn (rl_apply_ok rn)) in E; try apply rl_ok0.
  - apply (relabel_do_inv (fun _ => rl_ok) rn) in H; [now destruct H | intros _; apply rl_apply_ok | auto | exact E].
  - injection H as _ <- _. now destruct E.
Qed.

(* the forward chain {a -> b, b -> c} is rejected, though it is injective and b does not stay *)
Definition two_points : rep :=
  fst (addSimplex (fst (addSimplex (empty_rep 1) [] (Some (NStr "a")) None)) [] (Some (NStr "b")) None).
Theorem forward_chain_refuted :
  snd (relabel two_points (RMap [(NStr "a", NStr "b"); (NStr "b", NStr "c")])) = Raise ValueError /\
  (* whereas a renaming onto names the complex does not have is accepted *)
  snd (relabel two_points (RMap [(NStr "b", NStr "c"); (NStr "a", NStr "x")])) =
    Ok [(NStr "a", NStr "x"); (NStr "b", NStr "c")].
Proof. vm_compute. split; reflexivity. Qed.
