(* ComplexesFrame.v -- Filtration.complexes() taken as a whole: however many snapshots it builds and
   wherever it stops, no attribute dictionary that existed before the call is written. *)
From Coq Require Import String ZArith Bool Arith List Lia.
From SV Require Import Names NamesFacts ListFacts Rep Fresh Complex Atomic RepInv Filtration World WorldProofs.
Import ListNotations.
Open Scope nat_scope.

Theorem complexes_heap_frame w f pre w' o : exec w (CComplexes f pre) = (w', o) ->
  forall h, fst h < w_uid w -> heap_get (w_heap w') h = heap_get (w_heap w) h.
Proof.
  cbn [exec]. destruct (vget (w_vars w) f) as [[r|ff|e]|]; try (intros [= <- _]; reflexivity).
  match goal with |- context [fold_left ?step _ _] =>
    assert (S : forall L acc, wle w (fst (fst acc)) -> wle w (fst (fst (fold_left step L acc)))) end.
  { induction L as [|i L IH]; intros acc Hacc; cbn [fold_left]; [exact Hacc|]. apply IH.
    destruct acc as [[w1 n] [u|e]]; [|exact Hacc]. cbn [fresh_uid fst w_heap] in *.
    destruct (copy_new _ _ _) as [[hp r'] res] eqn:E.
    destruct (copy_new_fresh _ _ _ _ _ _ E) as (_ & _ & F).
    apply (wle_trans _ _ _ Hacc). destruct res; apply (wle_fresh _ _ (w_uid w1)); cbn; auto. }
  specialize (S (f_indices ff) (w, 0, Ok tt) (wle_refl w)).
  destruct (fold_left _ _ _) as [[w1 n] res]. intros [= <- _]. apply S.
Qed.
