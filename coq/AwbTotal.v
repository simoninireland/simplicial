(* AwbTotal.v -- add by basis never fails within its contract: on a complex with the vertex-set
   reading, a duplicate-free list bs of at least two names, each a point of the complex or not in
   it, that no simplex spans yet, and a requested name that is free, addSimplexWithBasis succeeds
   and honours the name.  Every add it makes passes addSimplex's checks: the faces were just found
   or made one order below, and a simplex with those faces would span bs.  Plain Coq. *)
From Coq Require Import String Bool Arith List Lia.
From SV Require Import Names NamesFacts ListFacts FoldRes Rep Fresh Complex Atomic RepInv Reach Shapes AddEffect Closed Duality BasisInv
                       VInv AwbSpec VSets Lookup Continuation FlagExt FlagComplete ComposeProofs CopyOk.
Import ListNotations.
Open Scope nat_scope.

Lemma addSimplex_named_total r fs n attr : NoDup fs -> 2 <= length fs -> length fs - 1 <= r_nord r ->
  containsSimplex r n = false ->
  (forall f, In f fs -> exists j, assoc f (r_simp r) = Some (length fs - 1 - 1, j)) ->
  (length fs - 1 < r_nord r -> simplexWithFaces r fs = Ok None) ->
  exists r', addSimplex r fs (Some n) attr = (r', Ok n).
Proof.
  intros Hnd Hl Hk Hn Hord Hswf. destruct attr as [h|].
  - apply addSimplex_succeeds_named; auto; lia.
  - destruct (addSimplex_succeeds_named (fst (alloc r)) fs n (snd (alloc r))) as (r' & E); auto; try lia.
    + intros _ Hlt. rewrite (simplexWithFaces_respects r _ fs (same_obs_alloc r)). now apply Hswf.
    + exists r'. rewrite <- E. unfold addSimplex.
      replace ((length fs - 1 =? 0) && negb (length fs =? 0)) with false
        by (symmetry; apply andb_false_intro1, Nat.eqb_neq; lia).
      change (containsSimplex (fst (alloc r)) n) with (containsSimplex r n). rewrite Hn. reflexivity.
Qed.

Lemma lookup_absent r bs : vinv r -> NoDup bs -> bs <> [] ->
  (forall t, containsSimplex r t = true -> ~ sameset (basisOf r t) bs) -> c_simplexWithBasis r bs false = Ok None.
Proof.
  intros Hv Nd Hne Hno.
  destruct (lookup_total r bs Hv Nd Hne) as [(s & _ & Cs & Ss)|[El _]]; [destruct (Hno s Cs Ss) | exact El].
Qed.

Lemma final_add_total st bs fs nm at' : vinv st -> NoDup bs -> 2 <= length bs ->
  named st fs (drop_one bs) -> (forall t, containsSimplex st t = true -> ~ sameset (basisOf st t) bs) ->
  containsSimplex st nm = false -> exists r', addSimplex st fs (Some nm) at' = (r', Ok nm).
Proof.
  intros Hv Nd Hl Hnm Hno Hfree.
  pose proof (vinv_pinv st Hv) as P.
  assert (Hlen : length fs = length bs) by (rewrite <- (length_drop_one bs); exact (Forall2_len _ _ _ Hnm)).
  (* each face spans one point less than bs *)
  assert (Hord : forall f, In f fs -> exists j, assoc f (r_simp st) = Some (length fs - 1 - 1, j)).
  { intros f Hf. destruct (Forall2_in_l _ _ _ f Hnm Hf) as (pfs & Hpfs & Cf & Sf).
    destruct (facet_props bs pfs Nd Hpfs) as (Np & _ & Lp).
    apply (containsSimplex_assoc st _) in Cf. destruct Cf as (kf & j & Af). exists j. rewrite Af. do 2 f_equal.
    pose proof (v_card st Hv f kf j Af) as Lc.
    rewrite (NoDup_same_length _ _ (basis_nodup st f P) Np Sf) in Lc. lia. }
  apply addSimplex_named_total; auto.
  - exact (named_nodup st bs fs Nd Hnm).
  - lia.
  - destruct fs as [|f0 t]; [simpl in Hlen; lia|]. destruct (Hord f0 (or_introl eq_refl)) as (j & A).
    destruct P as [K Pm St L]. apply Pm in A. lia.
  - intros Hlt. rewrite (swf_total st fs); [|lia|exact Hord].
    destruct (last _ None) as [q|] eqn:El; [exfalso|reflexivity].
    apply last_Some_In, filter_In in El. destruct El as [Hq Sq]. apply seteq_sameset in Sq.
    destruct (proj1 (listed_assoc st q _ P) Hq) as (jq & Aq).
    apply (Hno q); [exact (assoc_contains st q _ _ Aq)|].
    (* the points of q are those of its faces, the facets of bs *)
    destruct (b_b st (v_b st Hv) q _ jq Aq) as [_ B]. intros p. rewrite (B ltac:(lia) p).
    rewrite <- (named_span st bs fs Nd Hl Hnm p). split; intros (u & Hu & Hp); exists u; (split; [now apply Sq | exact Hp]).
Qed.

(* the call for bs itself has k = |bs| - 1 and bs absent, and gives the simplex the name id; the calls
   for smaller sets below it have |bs| - 1 < k, synthesise names other than id, and so leave id free *)
Definition awb_total (fuel : nat) : Prop :=
  forall r id attr k bs, vinv r -> NoDup bs -> bs <> [] -> pts r bs -> length bs <= fuel -> length bs - 1 <= k ->
  containsSimplex r id = false ->
  (k = length bs - 1 -> forall t, containsSimplex r t = true -> ~ sameset (basisOf r t) bs) ->
  exists r' s, c_awb fuel r id attr k bs = (r', Ok s) /\
               if k =? length bs - 1 then s = id else containsSimplex r' id = false.

Lemma fold_total f id attr k bs : awb_total f -> forall (L : list (list name)) st acc,
  (forall pfs, In pfs L -> NoDup pfs /\ pfs <> [] /\ incl pfs bs /\ length pfs <= f /\ length pfs - 1 < k) ->
  vinv st -> pts st bs -> containsSimplex st id = false ->
  exists st1 fs, fold_left (lift_res (awb_face f id attr k)) L (st, Ok acc) = (st1, Ok fs) /\ containsSimplex st1 id = false.
Proof.
  intros Hf L st acc HL Hv Hp Hid.
  destruct (fold_res_total (awb_face f id attr k) (fun _ st1 _ => vinv st1 /\ pts st1 bs /\ containsSimplex st1 id = false) L)
    with (done := @nil (list name)) (s := st) (a := acc) as (st1 & fs & E & _ & _ & Hid1); [|auto|eauto].
  intros done st0 acc0 pfs Hin (Hv0 & Hp0 & Hid0).
  destruct (HL pfs Hin) as (Nd & Hne & Hi & Hlf & Hlk).
  assert (Hpp : pts st0 pfs) by (intros b Hb; apply Hp0, Hi, Hb).
  destruct (Hf st0 id attr k pfs Hv0 Nd Hne Hpp Hlf ltac:(lia) Hid0 ltac:(lia)) as (st2 & s & E & Hid2).
  replace (k =? length pfs - 1) with false in Hid2 by (symmetry; apply Nat.eqb_neq; lia).
  destruct (awb_spec f st0 id attr k pfs st2 s Hv0 Nd Hne Hpp E) as (Hv2 & _ & _ & Hx2).
  exists st2, (acc0 ++ [s]). unfold awb_face. rewrite E. split; [reflexivity|]. split; [exact Hv2|]. split; [|exact Hid2].
  exact (pts_keeps st0 st2 bs (x_old _ _ _ _ Hx2) Hp0).
Qed.

Theorem awb_never_fails fuel : awb_total fuel.
Proof.
  induction fuel as [|f IH]; intros r id attr k bs Hv Nd Hne Hp Hf Hk Hid Hno.
  { destruct bs; [contradiction | simpl in Hf; lia]. }
  unfold c_awb. cbn [awb].
  change (simplexWithBasis rep (fun r0 => r0) containsSimplex orderOf r bs false) with (c_simplexWithBasis r bs false).
  pose proof (lookup_by_basis_exact r bs Hv Hp Nd Hne) as L.
  destruct (c_simplexWithBasis r bs false) as [[q|]|e] eqn:El; [| |destruct L].
  - exists r, q. split; [reflexivity|]. destruct (Nat.eqb_spec k (length bs - 1)) as [Ek|_]; [|exact Hid].
    destruct L as (Hc & Hs & _). destruct (Hno Ek q Hc Hs).
  - destruct (lookup_none r bs Hv Hp Nd Hne El) as [Hl _].
    change (fold_left _ (drop_one bs) (r, Ok [])) with (fold_left (lift_res (awb_face f id attr k)) (drop_one bs) (r, Ok [])).
    pose proof (facets_fit bs Nd Hl) as HL.
    destruct (fold_total f id attr k bs IH (drop_one bs) r []) as (st1 & fs & Ef & Hid1); auto.
    { intros pfs Hin. destruct (HL pfs Hin) as (H1 & H2 & H3 & H4). repeat split; auto; lia. }
    rewrite Ef.
    destruct (fold_spec f id attr k bs (length bs - 1) r (awb_spec f) Hv Hp (drop_one bs) st1 fs HL Ef) as (Hv1 & Hx1 & Hn1).
    rewrite (dedupn_nodup_id fs (named_nodup st1 bs fs Nd Hn1)).
    pose proof (ext_no_span bs _ r st1 Hx1 Hv1 Nd ltac:(lia) L) as Hno1.
    (* the closing add, on st1 with the name counter advanced, under a free name *)
    assert (Hfin : forall st1' nm at', same_obs st1 st1' -> containsSimplex st1 nm = false ->
              exists r', addSimplex st1' fs (Some nm) at' = (r', Ok nm) /\ (nm <> id -> containsSimplex r' id = false)).
    { intros st1' nm at' Hso Hnm. destruct (same_obs_queries st1 st1' Hso) as (_ & _ & _ & _ & Qb & Qc & _).
      pose proof (vinv_same_obs st1 st1' Hso Hv1) as Hv1'.
      destruct (final_add_total st1' bs fs nm at' Hv1' Nd Hl) as (r' & E).
      - exact (named_keeps st1 st1' fs _ (keeps_same_obs st1 st1' Hso) Hn1).
      - intros t Ht. rewrite Qc in Ht. rewrite Qb. now apply Hno1.
      - now rewrite Qc.
      - exists r'. split; [exact E|]. intros Hne'.
        destruct (addSimplex_effect st1' fs (Some nm) at' r' nm (vinv_sinv _ Hv1') E) as (_ & _ & _ & _ & _ & Hall).
        rewrite Hall, Qc, Hid1. apply name_eqb_neq. congruence. }
    destruct (Nat.eqb_spec k (length bs - 1)) as [Ek|Ek].
    + destruct (Hfin st1 id (Some attr) (same_obs_refl st1) Hid1) as (r' & E & _). exists r', id. auto.
    + destruct (newSimplex_fresh st1 (length bs - 1)) as (i1 & n1 & En1 & An1 & _ & F1). rewrite En1.
      destruct (name_eqb_spec n1 id) as [E1|E1].
      * destruct (newSimplex_fresh (set_seq st1 (S i1)) (length bs - 1)) as (i2 & n2 & En2 & An2 & Hle & F2). rewrite En2.
        assert (N2 : n2 <> id) by (rewrite <- E1, An1, An2; intros H; apply auto_inj in H; cbn [r_seq set_seq] in Hle; lia).
        destruct (Hfin (set_seq (set_seq st1 (S i1)) (S i2)) n2 None) as (r' & E & Hid'); [| exact F2 |].
        -- eapply same_obs_trans; apply same_obs_set_seq.
        -- exists r', n2. auto.
      * destruct (Hfin (set_seq st1 (S i1)) n1 None (same_obs_set_seq st1 (S i1)) F1) as (r' & E & Hid'). exists r', n1. auto.
Qed.

Definition points_or_free (st : rep) (l : list name) : Prop :=
  forall b, In b l -> containsSimplex st b = true -> orderOf st b = Ok 0.

Lemma ensure_check_ok st l : points_or_free st l -> ensure_check rep containsSimplex orderOf st l = Ok tt.
Proof.
  induction l as [|b t IH]; intros H; [reflexivity|]. simpl.
  assert (Ht : points_or_free st t) by (intros x Hx; apply H; now right).
  destruct (containsSimplex st b) eqn:C; [rewrite (H b (or_introl eq_refl) C)|]; now apply IH.
Qed.

Lemma ensure_add_total id h : forall l st, vinv st -> NoDup l -> ~ In id l -> containsSimplex st id = false ->
  points_or_free st l ->
  exists st1, ensure_add rep containsSimplex orderOf addSimplex st l (Some h) = (st1, Ok tt) /\
              containsSimplex st1 id = false /\
              forall t, containsSimplex st1 t = true -> containsSimplex st t = true \/ In t l.
Proof.
  induction l as [|b t IH]; intros st Hv Nd Hni Hid Hpf; [exists st; auto|].
  inversion Nd as [|? ? Hb Ht]; subst. cbn [ensure_add].
  assert (Hni' : ~ In id t) by (intros H; apply Hni; now right).
  destruct (containsSimplex st b) eqn:C.
  - rewrite (Hpf b (or_introl eq_refl) C).
    destruct (IH st Hv Ht Hni' Hid) as (st1 & E & Hid1 & Hnew); [intros x Hx; apply Hpf; now right|].
    exists st1. split; [exact E|]. split; [exact Hid1|]. intros x Hx. destruct (Hnew x Hx); [now left | right; now right].
  - destruct (addSimplex_succeeds_named st [] b h (NoDup_nil _)) as (st2 & E); try (simpl; lia); [exact C|].
    rewrite E.
    destruct (addSimplex_effect st [] (Some b) (Some h) st2 b (vinv_sinv st Hv) E) as (_ & _ & _ & _ & Hold & Hall).
    destruct (IH st2) as (st1 & E1 & Hid1 & Hnew); auto.
    + eapply addSimplex_vinv; [exact Hv | now left | exact E].
    + rewrite Hall, Hid. apply name_eqb_neq. intros ->. apply Hni. now left.
    + intros x Hx Cx. rewrite Hall in Cx. apply orb_prop in Cx. destruct Cx as [Cx|Cx].
      * destruct (Hold x Cx) as (-> & _). apply Hpf; [now right | exact Cx].
      * apply name_eqb_eq in Cx. subst x. contradiction.
    + exists st1. split; [exact E1|]. split; [exact Hid1|]. intros x Hx. destruct (Hnew x Hx) as [Cx|Hin]; [|right; now right].
      rewrite Hall in Cx. apply orb_prop in Cx. destruct Cx as [Cx|Cx]; [now left|]. apply name_eqb_eq in Cx. right. now left.
Qed.

Theorem addSimplexWithBasis_total r bs id attr : vinv r -> NoDup bs -> 2 <= length bs ->
  containsSimplex r id = false -> ~ In id bs -> points_or_free r bs ->
  (forall t, containsSimplex r t = true -> ~ sameset (basisOf r t) bs) ->
  exists r', c_addSimplexWithBasis r bs (Some id) attr = (r', Ok id).
Proof.
  intros Hv Nd Hl Hid Hni Hpf Hno. unfold c_addSimplexWithBasis, addSimplexWithBasis.
  destruct bs as [|b0 bs0]; [simpl in Hl; lia|]. set (bs := b0 :: bs0) in *.
  rewrite Hid, (proj2 (memn_false id bs) Hni), andb_false_r. cbn [orb].
  destruct (attr_or_alloc r attr) as (st & h & -> & Hso).
  destruct (same_obs_queries r st Hso) as (Qo & _ & _ & _ & Qb & Qc & _).
  pose proof (vinv_same_obs r st Hso Hv) as Hvst.
  assert (Hne : bs <> []) by discriminate.
  change (simplexWithBasis rep (fun r0 => r0) containsSimplex orderOf st bs false) with (c_simplexWithBasis st bs false).
  rewrite (lookup_absent st bs Hvst Nd Hne) by (intros t Ht; rewrite Qc in Ht; rewrite Qb; now apply Hno).
  replace (length bs - 1 =? 0) with false by (symmetry; apply Nat.eqb_neq; lia).
  assert (Hpf' : points_or_free st bs) by (intros b Hb Cb; rewrite Qc in Cb; rewrite Qo; now apply Hpf).
  unfold ensureBasis. rewrite (ensure_check_ok st bs Hpf').
  destruct (ensure_add_total id h bs st Hvst Nd Hni) as (st1 & Ee & Hid1 & Hnew); [now rewrite Qc | exact Hpf'|]. rewrite Ee.
  destruct (ensure_add_spec bs h bs st st1 Hvst (incl_refl bs) Ee) as (Hv1 & Hp1 & Hg1).
  destruct (awb_never_fails (S (length bs)) st1 id h (length bs - 1) bs Hv1 Nd Hne Hp1) as (r' & s & E & Hs); auto.
  - (* what ensureBasis made are points of bs; they span too little *)
    intros _ t Ht Hss. destruct (Hnew t Ht) as [Hold|Hin].
    + destruct (g_old _ _ _ Hg1 t Hold) as (_ & _ & _ & Bt). rewrite Bt, Qb in Hss. rewrite Qc in Hold. exact (Hno t Hold Hss).
    + destruct (Hp1 t Hin) as (i & At). pose proof (v_card st1 Hv1 t 0 i At) as Lc.
      rewrite (NoDup_same_length _ _ (basis_nodup st1 t (vinv_pinv st1 Hv1)) Nd Hss) in Lc. lia.
  - rewrite Nat.eqb_refl in Hs. subst s. exists r'. exact E.
Qed.
