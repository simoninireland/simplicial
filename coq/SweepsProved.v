(* SweepsProved.v -- statements over the enumerated domain of Sweeps.v that are instances of theorems
   about every complex.  Where a checker ends in the well-formedness of a complex it has computed, the
   kernel evaluates the rest of the checker and well-formedness follows from the invariants every
   operation keeps (SpecWf.v); monotonicity of the Vietoris-Rips family is VRProofs.vr_monotone, and
   the kernel only runs each construction to see that it ends normally; chk_flag holds of every
   complex with the vertex-set reading (FlagFinal.v), with nothing left to evaluate; for k_simplex and
   k_void the counts and Betti numbers are evaluated and well-formedness is proved.  Plain Coq. *)
From Coq Require Import String ZArith Bool Arith List Lia.
From SV Require Import Names NamesFacts ListFacts Rep Complex Homology Filtration Gen World RepInv Shapes Closed
                       ClosedReach CopyFaithful BasisInv VInv AwbSpec VSets ClosureCount VIso FlagExt MinCycle FlagSound
                       FlagComplete VRProofs FlagFinal TopOrder CpsGen SnapCounts SubdivVinv GenSets GenFrame
                       SameFamily Small Sweeps SpecSets SpecWf SpecBuild SpecEffects.
Import ListNotations.
Open Scope nat_scope.

Lemma forallb_weaken {A} (p q : A -> bool) (l : list A) :
  (forall x, In x l -> p x = true -> q x = true) -> forallb p l = true -> forallb q l = true.
Proof. rewrite !forallb_forall. auto. Qed.

Lemma wfb_reached r : vinv r -> tcinv r -> wfb r = true.
Proof. intros Hv [_ T]. now apply wfb_of_invariants. Qed.

Definition subdiv_rest (r : rep) : bool :=
  forallb (fun s =>
    if ord r s =? 0 then true else
    let V := basisOf r s in
    match barycentricSubdivide r s V with
    | (r', Ok m) =>
        negb (containsSimplex r m) &&
        fam_eq (fam r')
               (dedup_sets (filter (fun U => negb (subsetn V U)) (fam r) ++
                            map (fun A => A ++ [m]) (filter (fun A => negb (length A =? length V)) (sublists V)))) &&
        frame r r' (fun t => negb (subsetn V (basisOf r t)))
    | (_, Raise _) => false
    end) (simplices r false).

Theorem subdiv_from_rest r : vinv r -> tcinv r -> subdiv_rest r = true -> chk_subdiv r = true.
Proof.
  intros Hv Ht. apply forallb_weaken. intros s _. destruct (ord r s =? 0); [auto|]. cbv zeta.
  pose proof (pstep_tcinv r (PSubdivide s (basisOf r s)) Ht) as T. cbn [pstep] in T.
  destruct (barycentricSubdivide r s (basisOf r s)) as [r' [m|e]] eqn:E; [|auto].
  intros H. rewrite H. apply (wfb_reached r'); [|exact T]. exact (barycentricSubdivide_vinv r s _ r' m Hv E).
Qed.

Lemma sweep_subdiv4 : forallb (fun c => subdiv_rest (build c)) complexes4 = true.
Proof. vm_compute. reflexivity. Qed.

Theorem subdiv_upto4 : forall c, In c complexes4 -> chk_subdiv (build c) = true.
Proof.
  intros c Hc. apply subdiv_from_rest; [apply (build_invariants4 c Hc) | apply build_tcinv | exact (lift _ _ sweep_subdiv4 c Hc)].
Qed.

Lemma fam_covers_carried f1 f2 : vinv f1 -> pinv f2 ->
  (forall B, NoDup B -> B <> [] -> carried f1 B -> carried f2 B) -> covers (fam f1) (fam f2).
Proof.
  intros V1 P2 H V HV. pose proof (vinv_pinv f1 V1) as P1. apply (In_fam f1 V P1) in HV. destruct HV as (t & Ht & <-).
  destruct (proj1 (containsSimplex_assoc f1 t) Ht) as (k & j & A).
  destruct (H (basisOf f1 t)) as (u & Cu & Su).
  - apply basis_nodup, P1.
  - intros E. pose proof (v_card f1 V1 t k j A) as L. rewrite E in L. discriminate.
  - exists t. split; [exact Ht | apply sameset_refl].
  - exists (basisOf f2 u). split; [apply (In_fam f2 _ P2); eauto | now apply sameset_sym].
Qed.

Lemma fam_eq_carried a b : vinv a -> vinv b -> same_family a b -> fam_eq (fam a) (fam b) = true.
Proof.
  intros Va Vb H. apply fam_eq_distinct; try now apply distinct_fam.
  - apply fam_covers_carried; [exact Va | now apply vinv_pinv|]. intros B N E. now apply H.
  - apply fam_covers_carried; [exact Vb | now apply vinv_pinv|]. intros B N E. now apply H.
Qed.

Section VR.
  Variable n : nat.
  Let ss := simplicesOfOrder (points_rep n) 0.
  Hypothesis Hnd : NoDup ss.

  Definition in_range (close : list (nat * nat)) : Prop :=
    forall ij, In ij close -> fst ij < snd ij /\ snd ij < length ss.

  Lemma vr_model_family close f : in_range close -> vr_model n close = Some f ->
    vinv f /\ (forall p, carried f [p] <-> In p ss) /\ vr_fam ss close f.
  Proof.
    intros Hcl. unfold vr_model. destruct (vr_build 2 (points_rep n) close) as [g [[]|e]] eqn:E; [|discriminate].
    destruct (vr_complex_family [] 2 3 (points_rep n) close g Hnd Hcl E) as (hp1 & r' & Ef & V & Pts & Fam).
    rewrite Ef. intros H. injection H as <-. auto.
  Qed.

  Theorem vr_monotone_holds c1 c2 f1 f2 : in_range c1 -> in_range c2 ->
    vr_model n c1 = Some f1 -> vr_model n c2 = Some f2 -> chk_vr_monotone n c1 c2 = true.
  Proof.
    intros R1 R2 E1 E2. unfold chk_vr_monotone. rewrite E1, E2.
    destruct (forallb _ c1) eqn:Sub; [|reflexivity].
    assert (Hi : incl c1 c2).
    { intros [i j] Hp. rewrite forallb_forall in Sub. specialize (Sub _ Hp). apply existsb_exists in Sub.
      destruct Sub as ([i' j'] & Hq & E). apply andb_prop in E. destruct E as [Ea Eb].
      apply Nat.eqb_eq in Ea, Eb. simpl in Ea, Eb. now subst. }
    destruct (vr_model_family c1 f1 R1 E1) as (V1 & Pts1 & Fam1).
    destruct (vr_model_family c2 f2 R2 E2) as (V2 & Pts2 & Fam2).
    apply fam_sub_spec, (fam_covers_carried f1 f2 V1 (vinv_pinv f2 V2)). intros B NdB Hne HB.
    destruct B as [|p [|q B]]; [congruence| |].
    - apply Pts2. now apply Pts1.
    - apply (vr_monotone ss c1 c2 f1 f2 Hi Fam1 Fam2); [exact NdB | simpl; lia | exact HB].
  Qed.
End VR.

Definition vr_ready (n : nat) (L : list (list (nat * nat))) : bool :=
  nodupb (simplicesOfOrder (points_rep n) 0) &&
  forallb (fun c => forallb (fun ij => (fst ij <? snd ij) && (snd ij <? length (simplicesOfOrder (points_rep n) 0))) c &&
                    match vr_model n c with Some _ => true | None => false end) L.

Lemma sweep_vr_ready4 : vr_ready 4 (sublists (all_pairs 4)) = true.
Proof. vm_compute. reflexivity. Qed.

Theorem sweep_vr_monotone4 :
  forallb (fun c1 => forallb (chk_vr_monotone 4 c1) (sublists (all_pairs 4))) (sublists (all_pairs 4)) = true.
Proof.
  destruct (andb_prop _ _ sweep_vr_ready4) as [Nd All]. apply nodupb_NoDup in Nd.
  assert (R : forall c, In c (sublists (all_pairs 4)) -> in_range 4 c /\ exists f, vr_model 4 c = Some f).
  { intros c Hc. destruct (andb_prop _ _ (lift _ _ All c Hc)) as [Rc Ec]. split.
    - intros ij Hij. destruct (andb_prop _ _ (lift _ _ Rc ij Hij)) as [Ha Hb].
      apply Nat.ltb_lt in Ha, Hb. auto.
    - destruct (vr_model 4 c) as [f|]; [eauto | discriminate]. }
  apply forallb_forall. intros c1 H1. apply forallb_forall. intros c2 H2.
  destruct (R c1 H1) as (R1 & f1 & E1). destruct (R c2 H2) as (R2 & f2 & E2).
  exact (vr_monotone_holds 4 Nd c1 c2 f1 f2 R1 R2 E1 E2).
Qed.

(* the copy has the bases of the source, and completing it touches no basis *)
Lemma flagComplex_unchanged hp r uid hp' f : vinv r -> flagComplex hp r uid = (hp', f, Ok tt) ->
  forall t, containsSimplex r t = true -> unchanged r f t.
Proof.
  intros Hv H t Ct. pose proof (vinv_cinv r Hv) as C. pose proof (proj2 (In_simplices_iff r t (vinv_pinv r Hv)) Ct) as Lt.
  destruct (flagComplex_contains_source hp r uid hp' f H) as (_ & Hsrc & _). destruct (Hsrc t Lt) as (Cf & O & F).
  split; [exact Cf|]. split; [now rewrite O, (order_by_faces r t C Ct)|]. split; [exact F|].
  unfold flagComplex in H. destruct (copy_new hp (view_of r) uid) as [[hp1 c] [[]|e]] eqn:E0; [|discriminate].
  destruct (completePotentialSimplices c (flag_seed c)) as [c' x] eqn:E1. injection H as _ <- _.
  destruct (copy_vinv hp r uid hp1 c Hv E0) as [Vc Bc]. destruct (copy_faithful hp r uid hp1 c E0) as (_ & Hc & _).
  destruct (completePotentialSimplices_vinv c _ c' x Vc E1) as [_ [_ Bb]].
  assert (Cc : containsSimplex c t = true) by (rewrite Hc; now apply memn_In).
  rewrite (Bb t Cc). exact (Bc t Cc).
Qed.

Lemma is_edge_spec r p q : vinv r -> p <> q -> (is_edge r p q = true <-> edge_of r p q).
Proof.
  intros Hv Ne. pose proof (vinv_pinv r Hv) as P. rewrite (edge_carried_iff r p q Hv Ne). unfold is_edge. rewrite set_mem_spec. split.
  - intros (W & HW & E). apply filter_In in HW. destruct HW as [HW _]. apply (In_fam r W P) in HW.
    destruct HW as (t & Ct & <-). exists t. split; [exact Ct | now apply sameset_sym].
  - intros (t & Ct & St). exists (basisOf r t). split; [|now apply sameset_sym]. apply filter_In.
    split; [apply (In_fam r _ P); eauto|]. apply Nat.eqb_eq.
    exact (NoDup_same_length _ _ (basis_nodup r t P) (nodup2 p q Ne) St).
Qed.

Lemma clique_spec r V : vinv r -> NoDup V -> (Sweeps.clique r V = true <-> FlagComplete.clique r V).
Proof.
  intros Hv. induction V as [|p V IH]; intros Nd; [split; [intros _ a b [] | reflexivity]|].
  inversion Nd as [|? ? Hp NdV]; subst. cbn [Sweeps.clique]. rewrite andb_true_iff, forallb_forall, (IH NdV). split.
  - intros [He Cl] a b [<-|Ha] [<-|Hb] Ne; [congruence | | | now apply Cl].
    + apply (is_edge_spec r p b Hv Ne). now apply He.
    + apply edge_of_sym, (is_edge_spec r p a Hv (not_eq_sym Ne)). now apply He.
  - intros Cl. split; [|intros a b Ha Hb; apply Cl; now right].
    intros q Hq. assert (Ne : p <> q) by (intros ->; contradiction).
    apply (is_edge_spec r p q Hv Ne), Cl; [now left | now right | exact Ne].
Qed.

Lemma distinct_sublists l : NoDup l -> distinct_sets (nonempty_sublists l).
Proof.
  intros Nd. split; [apply NoDup_filter; rewrite sublists_subseqs; now apply NoDup_subseqs|].
  intros V W HV HW. apply In_nonempty_sublists in HV, HW. exact (subseqs_sameset_eq l V W Nd (proj1 HV) (proj1 HW)).
Qed.

Lemma carried_by_size a b : vinv a -> vinv b -> (forall p, orderOf a p = Ok 0 <-> orderOf b p = Ok 0) ->
  (forall B, NoDup B -> 2 <= length B -> (carried a B <-> carried b B)) -> same_family a b.
Proof.
  intros Va Vb Pt H B N E. destruct B as [|p [|q B]]; [congruence | | apply H; [exact N | simpl; lia]].
  rewrite (point_carried a p Va), (point_carried b p Vb). apply Pt.
Qed.

Section Flag.
  Variables (r f : rep).
  Hypothesis Hv : vinv r.
  Hypothesis Vf : vinv f.
  Hypothesis Pt : forall p, orderOf f p = Ok 0 <-> orderOf r p = Ok 0.
  Hypothesis Cl : forall B, NoDup B -> 2 <= length B -> (carried f B <-> FlagComplete.clique r B).
  Let P : pinv r := vinv_pinv r Hv.
  Let l := simplicesOfOrder r 0.

  (* the non-empty sublists of r's points that pass the test of clique_family are the sets f carries *)
  Lemma passes_iff_carried W : In W (nonempty_sublists l) ->
    ((length W =? 1) || Sweeps.clique r W = true <-> carried f W).
  Proof.
    intros HW. apply In_nonempty_sublists in HW. destruct HW as [HW Hne].
    pose proof (subseqs_nodup l W (simplicesOfOrder_nodup r 0 P) HW) as Nd. pose proof (subseqs_incl l W HW) as Hi.
    destruct W as [|p [|q W]]; [congruence | |].
    - rewrite (point_carried f p Vf), Pt. split; [intros _ | reflexivity].
      apply orderOf_assoc, (listed_assoc r p 0 P), Hi. now left.
    - cbn [length Nat.eqb orb]. rewrite (clique_spec r _ Hv Nd). symmetry. apply (Cl _ Nd). simpl. lia.
  Qed.

  Lemma flag_family : fam_eq (fam f) (clique_family r) = true.
  Proof.
    apply fam_eq_distinct; [now apply distinct_fam | apply distinct_filter, distinct_sublists, (simplicesOfOrder_nodup r 0 P) | |].
    - intros V HV. apply (In_fam f V (vinv_pinv f Vf)) in HV. destruct HV as (t & Ct & <-).
      destruct (proj1 (containsSimplex_assoc f t) Ct) as (k & j & A).
      destruct (subset_as_sublist (basisOf f t) l) as (W & HW & E).
      + intros p Hp. destruct (a_basis_point f Vf t k j p A Hp) as (i & Ap).
        apply (listed_assoc r p 0 P), orderOf_assoc, Pt, orderOf_assoc. eauto.
      + intros E. pose proof (v_card f Vf t k j A) as L. rewrite E in L. discriminate.
      + exists W. split; [|exact E]. apply filter_In. split; [exact HW|]. apply (passes_iff_carried W HW).
        exists t. split; [exact Ct | exact E].
    - intros W HW. apply filter_In in HW. destruct HW as [HW Pa]. apply (passes_iff_carried W HW) in Pa.
      destruct Pa as (u & Cu & Su). exists (basisOf f u). split; [apply (In_fam f _ (vinv_pinv f Vf)); eauto | now apply sameset_sym].
  Qed.
End Flag.

Theorem chk_flag_holds r : vinv r -> topinv r -> chk_flag r = true.
Proof.
  intros Hv T. pose proof (vinv_cinv r Hv) as C. unfold chk_flag.
  destruct (flag_complex_is_clique_complex [] r 7 Hv) as (hp1 & f & Ef & Vf & If). rewrite Ef.
  destruct (flag_complex_is_clique_complex [] f 8 Vf) as (hp2 & g & Eg & Vg & _). rewrite Eg.
  destruct (flag_complex_idempotent [] r 7 hp1 f [] 8 Hv Ef) as (hp2' & g' & Eg' & Ig). rewrite Eg in Eg'. injection Eg' as <- <-.
  rewrite !andb_true_iff. repeat split.
  - exact (flag_family r f Hv Vf (fun p => flagComplex_same_points [] r 7 hp1 f p C Ef) If).
  - exact (frame_spec r f (fun _ => true) (vinv_pinv r Hv) (flagComplex_unchanged [] r 7 hp1 f Hv Ef)).
  - exact (wfb_of_invariants f Vf (t_t f (flagComplex_tcinv _ _ _ _ _ _ Ef))).
  - apply (fam_eq_carried g f Vg Vf), (carried_by_size g f Vg Vf); [|exact Ig].
    intros p. exact (flagComplex_same_points [] f 8 hp2 g p (vinv_cinv f Vf) Eg).
Qed.

Theorem flag_upto4 : forall c, In c complexes4 -> chk_flag (build c) = true.
Proof. intros c H. destruct (build_invariants4 c H) as [Hv T]. exact (chk_flag_holds _ Hv T). Qed.

Lemma k_simplex_tcinv k id attr r : tcinv r -> tcinv (fst (k_simplex k id attr r)).
Proof.
  intros T. assert (A : forall r0 fs i a, tcinv r0 -> tcinv (fst (addSimplex r0 fs i a))).
  { intros r0 fs i a. exact (pstep_tcinv r0 (PAdd fs i a)). }
  destruct k; apply (bindR_I tcinv); auto; [now apply (add_points_I tcinv A)|].
  intros r1 bs T1. apply (bindR_I tcinv); auto. exact (pstep_tcinv r1 (PAddB bs id attr) T1).
Qed.

Lemma k_void_tcinv k r : tcinv r -> tcinv (fst (k_void k r)).
Proof.
  intros T. apply (bindR_I tcinv); [now apply k_simplex_tcinv|]. intros r1 _ T1.
  destruct (filter _ _) as [|s l]; [exact T1 | exact (pstep_tcinv r1 (PDelete s) T1)].
Qed.

Lemma k_simplex_vinv k id attr r r' : vinv r -> k_simplex k id attr r = (r', Ok tt) -> vinv r'.
Proof.
  intros Hv H. destruct k as [|k]; [|now destruct (k_simplex_vertex_sets (S k) id attr r r' Hv (le_n_S _ _ (Nat.le_0_l k)) H) as (_ & _ & _ & _ & V & _)].
  unfold k_simplex in H. destruct (addSimplex r [] id attr) as [r1 [n|e]] eqn:E; [|discriminate]. injection H as <-.
  eapply addSimplex_vinv; [exact Hv | now left | exact E].
Qed.

(* the checkers without their last conjunct, and with the outcome of the run *)
Definition k_simplex_rest (k : nat) : bool :=
  let x := k_simplex k (Some (NStr "top")) None (empty_rep 1) in
  let r := fst x in
  (match snd x with Ok _ => true | Raise _ => false end) &&
  (list_eqb (map pt (counts r)) (map pt (binom_row (S k) (S k))) &&
   (if list_eq_dec Z.eq_dec (bettisN r) (unit_betti (S k)) then true else false) &&
   containsSimplex r (NStr "top") && (ord r (NStr "top") =? k)).
Definition k_void_rest (k : nat) : bool :=
  let x := k_void k (empty_rep 1) in
  let r := fst x in
  (match snd x with Ok _ => true | Raise _ => false end) &&
  (list_eqb (map pt (counts r)) (map pt (binom_row (k + 2) (S k))) &&
   (if list_eq_dec Z.eq_dec (bettisN r)
         (match k with 0 => [2%Z] | _ => 1%Z :: repeat 0%Z (k - 1) ++ [1%Z] end) then true else false)).

Lemma k_simplex_from_rest k : k_simplex_rest k = true -> chk_k_simplex k = true.
Proof.
  unfold k_simplex_rest, chk_k_simplex, gen_on_empty. cbv zeta.
  pose proof (k_simplex_tcinv k (Some (NStr "top")) None _ (tcinv_empty 1)) as T.
  destruct (k_simplex k _ None (empty_rep 1)) as [r [[]|e]] eqn:E; cbn [fst snd] in *; [|discriminate].
  rewrite andb_true_l. intros H. rewrite H. exact (wfb_reached r (k_simplex_vinv _ _ _ _ r (vinv_empty 1) E) T).
Qed.

Lemma k_void_from_rest k : k_void_rest k = true -> chk_k_void k = true.
Proof.
  unfold k_void_rest, chk_k_void, gen_on_empty. cbv zeta. pose proof (k_void_tcinv k _ (tcinv_empty 1)) as T.
  destruct (k_void k (empty_rep 1)) as [r [[]|e]] eqn:E; cbn [fst snd] in *; [|discriminate].
  rewrite andb_true_l. intros H. rewrite H.
  destruct (k_void_vertex_sets k _ r (vinv_empty 1) E) as (_ & _ & _ & _ & V & _). exact (wfb_reached r V T).
Qed.

Lemma sweep_generators_rest :
  forallb k_simplex_rest (seq 0 7) && forallb k_void_rest (seq 0 6) && forallb chk_k_skeleton (seq 0 7) &&
  forallb chk_ring (seq 0 13) = true.
Proof. vm_compute. reflexivity. Qed.

Theorem sweep_generators :
  forallb chk_k_simplex (seq 0 7) && forallb chk_k_void (seq 0 6) && forallb chk_k_skeleton (seq 0 7) &&
  forallb chk_ring (seq 0 13) = true.
Proof.
  (* the four conjuncts are closed terms: they are taken apart by andb_prop and put together by
     andb_true_intro, which match them as they stand; rewriting with andb_true_iff would unify up to
     conversion and so run the whole sweep in the slow evaluator *)
  destruct (andb_prop _ _ sweep_generators_rest) as [H R]. destruct (andb_prop _ _ H) as [H' K].
  destruct (andb_prop _ _ H') as [S V].
  apply andb_true_intro. split; [|exact R]. apply andb_true_intro. split; [|exact K].
  apply andb_true_intro. split.
  - revert S. apply forallb_weaken. intros k _. apply k_simplex_from_rest.
  - revert V. apply forallb_weaken. intros k _. apply k_void_from_rest.
Qed.
