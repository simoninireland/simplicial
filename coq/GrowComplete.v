(* GrowComplete.v -- growFlagComplex = rebuild (C11): when the simplices handed to growFlagComplex are
   the only ones of the complex whose points contain theirs, and the complex was flag-complete apart from
   them, the result is the clique complex of its edges -- the family flagComplex builds from scratch.
   The sweep of FlagComplete.v with "tainted" read as: the points contain the points of a new simplex.
   Plain Coq. *)
From Coq Require Import String ZArith Bool Arith List Lia.
From SV Require Import Names NamesFacts ListFacts Rep Complex RepInv VInv Homology MinCycle FlagSound FlagComplete Counts.
Import ListNotations.
Open Scope nat_scope.

Definition taintb (TB : list (list name)) (B : list name) : bool := existsb (fun E => subsetn E B) TB.

Lemma taintb_true TB B : taintb TB B = true <-> exists E, In E TB /\ incl E B.
Proof. unfold taintb. rewrite existsb_exists. split; intros (E & H1 & H2); exists E; (split; [exact H1|]); now apply subsetn_incl. Qed.

Lemma taintb_sameset TB A B : sameset A B -> taintb TB A = taintb TB B.
Proof.
  intros S. apply eq_true_iff_eq. rewrite !taintb_true.
  split; intros (E & H1 & H2); exists E; (split; [exact H1|]); intros x Hx; apply S; auto.
Qed.

Lemma not_all_in (E B : list name) : forallb (fun x => memn x E) B = false -> exists x, In x B /\ ~ In x E.
Proof.
  induction B as [|a t IH]; simpl; [discriminate|]. destruct (memn a E) eqn:Em; simpl.
  - intros H. destruct (IH H) as (x & Hx & Nx). exists x. auto.
  - intros _. exists a. split; [now left|]. rewrite <- memn_In. congruence.
Qed.

(* a clique is untainted and was carried before; or it is the point set of a new simplex; or a point of it
   lies outside a new simplex inside it, and the facet without that point is tainted *)
Lemma taint_descends_taintb TB r :
  (forall B, NoDup B -> 2 <= length B -> clique r B -> taintb TB B = false -> carried r B) ->
  (forall E, In E TB -> carried r E) -> taint_descends (taintb TB) r.
Proof.
  intros Hu Ht B HB LB Cl. destruct (taintb TB B) eqn:Et; [|left; now apply Hu].
  apply taintb_true in Et. destruct Et as (E & HE & HEB).
  destruct (forallb (fun x => memn x E) B) eqn:Eall.
  - left. destruct (Ht E HE) as (t & Ct & St). exists t. split; [exact Ct|].
    intros x. rewrite (St x). split; [apply HEB|]. intros Hx. rewrite forallb_forall in Eall. apply memn_In. now apply Eall.
  - right. destruct (not_all_in E B Eall) as (x & Hx & Nx). exists x. split; [exact Hx|].
    apply taintb_true. exists E. split; [exact HE|]. intros z Hz. apply In_filter_neq. split; [now apply HEB|]. intros ->. contradiction.
Qed.

Lemma NoDup_firstn {A} n (l : list A) : NoDup l -> NoDup (firstn n l).
Proof.
  revert n. induction l as [|a t IH]; intros [|n] H; simpl; try constructor.
  - inversion H as [|? ? Ha Ht]; subst. intros Hin. apply Ha. rewrite <- (firstn_skipn n t). apply in_or_app. now left.
  - inversion H; subst. now apply IH.
Qed.

Lemma between (E B : list name) m : NoDup B -> incl E B -> NoDup E -> length E <= m -> m <= length B ->
  exists B', NoDup B' /\ incl B' B /\ incl E B' /\ length B' = m.
Proof.
  intros HB HE NE L1 L2.
  set (In_ := filter (fun x => memn x E) B). set (Out := filter (fun x => negb (memn x E)) B).
  assert (LIn : length In_ = length E).
  { apply NoDup_same_length; [now apply NoDup_filter | exact NE|]. intros x. unfold In_. rewrite filter_In, memn_In. split; [tauto | intros Hx; split; auto]. }
  pose proof (filter_partition_length (fun x => memn x E) B) as Lp. fold In_ Out in Lp.
  exists (In_ ++ firstn (m - length E) Out). split; [|split; [|split]].
  - apply NoDup_app'; [now apply NoDup_filter | apply NoDup_firstn; now apply NoDup_filter|].
    intros x H1 H2. unfold In_ in H1. apply filter_In in H1. destruct H1 as [_ H1].
    assert (H3 : In x Out) by (rewrite <- (firstn_skipn (m - length E) Out); apply in_or_app; now left).
    unfold Out in H3. apply filter_In in H3. destruct H3 as [_ H3]. rewrite H1 in H3. discriminate.
  - intros x Hx. apply in_app_or in Hx. destruct Hx as [Hx|Hx]; [unfold In_ in Hx; apply filter_In in Hx; tauto|].
    assert (H3 : In x Out) by (rewrite <- (firstn_skipn (m - length E) Out); apply in_or_app; now left).
    unfold Out in H3. apply filter_In in H3. tauto.
  - intros x Hx. apply in_or_app. left. unfold In_. apply filter_In. split; [now apply HE | now apply memn_In].
  - rewrite app_length, firstn_length, LIn. unfold In_, Out in *. lia.
Qed.

(* the seed of growFlagComplex: every new simplex is registered at its order and position *)
Lemma grow_seed r (F : res nssT -> name -> res nssT) :
  (forall acc s k i, assoc s (r_simp r) = Some (k, i) -> F (Ok acc) s = Ok (nss_add k i acc)) ->
  forall l a acc, a = Ok acc -> (forall s, In s l -> containsSimplex r s = true) ->
  exists nss, fold_left F l a = Ok nss /\ (forall j x, registered acc j x -> registered nss j x) /\
    (forall s, In s l -> exists k i, assoc s (r_simp r) = Some (k, i) /\ registered nss k i).
Proof.
  intros HF. induction l as [|s t IH]; intros a acc -> Hl.
  - exists acc. split; [reflexivity|]. split; [auto | intros s []].
  - cbn [fold_left]. destruct (proj1 (containsSimplex_assoc r s) (Hl s (or_introl eq_refl))) as (k & i & As).
    destruct (IH _ (nss_add k i acc) (HF acc s k i As) (fun u H => Hl u (or_intror H))) as (nss & E & Hk & Hall).
    exists nss. split; [exact E|]. split.
    + intros j x H. apply Hk. now apply nss_get_add_keep.
    + intros u [<-|Hu]; [|now apply Hall]. exists k, i. split; [exact As|]. apply Hk. apply nss_get_add_same.
Qed.

(* C11: growFlagComplex = rebuild.  `news` are simplices of r such that whatever simplex of r has the points
   of one of them among its points is itself one of them (new edges just added, say), and r is flag-complete
   apart from them: every clique of r's edges that does not contain the points of a new simplex carries a
   simplex.  Then growFlagComplex ends normally and the result is the clique complex of r's edges. *)
Theorem growFlagComplex_complete r news : vinv r -> news <> [] ->
  (forall s, In s news -> containsSimplex r s = true) ->
  let TB := map (basisOf r) news in
  (forall t, containsSimplex r t = true -> taintb TB (basisOf r t) = true -> In t news) ->
  (forall B, NoDup B -> 2 <= length B -> clique r B -> taintb TB B = false -> carried r B) ->
  exists r', growFlagComplex r news = (r', Ok tt) /\ vinv r' /\ ext2b r r' /\
    forall B, NoDup B -> 2 <= length B -> (carried r' B <-> clique r B).
Proof.
  intros Hv Hne Hin TB H1 H2. pose proof (vinv_pinv r Hv) as P.
  unfold growFlagComplex.
  match goal with |- context [fold_left ?F news ?a0] =>
    destruct (grow_seed r F) with (l := news) (a := a0) (acc := @nil (nat * list nat)) as (nss & E & _ & Hall)
  end; [intros acc s k i As; unfold orderOf, indexOf; now rewrite As | reflexivity | exact Hin |].
  rewrite E.
  apply (cps_complete (taintb TB) (taintb_sameset TB) r nss Hv).
  - apply (taint_descends_taintb TB r H2). intros E0 HE. apply in_map_iff in HE. destruct HE as (s & <- & Hs).
    exists s. split; [now apply Hin | intros x; tauto].
  - destruct news as [|s t]; [congruence|]. destruct (Hall s (or_introl eq_refl)) as (k & i & _ & (l & G & _)).
    intros ->. discriminate.
  - intros j i Hj Hi Ht. pose proof (nth_assoc r j i P Hi) as Aj.
    destruct (Hall _ (H1 _ (assoc_contains r _ j i Aj) Ht)) as (k & i' & A' & Hr). rewrite Aj in A'. now injection A' as <- <-.
Qed.

(* ... which is the family flagComplex builds from scratch *)
Corollary grow_equals_rebuild hp uid r news : vinv r -> news <> [] ->
  (forall s, In s news -> containsSimplex r s = true) ->
  let TB := map (basisOf r) news in
  (forall t, containsSimplex r t = true -> taintb TB (basisOf r t) = true -> In t news) ->
  (forall B, NoDup B -> 2 <= length B -> clique r B -> taintb TB B = false -> carried r B) ->
  forall hp1 c, copy_new hp (view_of r) uid = (hp1, c, Ok tt) ->
  exists r' rF, growFlagComplex r news = (r', Ok tt) /\ flagComplex hp r uid = (hp1, rF, Ok tt) /\
    forall B, NoDup B -> 2 <= length B -> (carried r' B <-> carried rF B).
Proof.
  intros Hv Hne Hin TB H1 H2 hp1 c E0.
  destruct (growFlagComplex_complete r news Hv Hne Hin H1 H2) as (r' & Eg & _ & _ & Ig).
  destruct (flagComplex_is_clique_complex hp r uid hp1 c Hv E0) as (rF & Ef & _ & If).
  exists r', rF. split; [exact Eg|]. split; [exact Ef|]. intros B HB LB. rewrite (Ig B HB LB), (If B HB LB). tauto.
Qed.
