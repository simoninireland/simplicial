(* SameFamily.v -- two complexes that meet the vertex-set reading and carry simplices on the same sets of
   points have, order by order, equally many simplices and boundary operators that differ only by a
   re-indexing of rows and columns (the bijection "same points").  The list-level half of C06's "the result
   depends only on the family of vertex sets".  Plain Coq. *)
From Coq Require Import String ZArith Bool Arith List Lia.
From SV Require Import ListFacts Names Rep RepInv Shapes Incidence BasisInv VInv AwbSpec VSets DD FlagComplete.
Import ListNotations.
Open Scope nat_scope.

Fixpoint idx_of (p : name -> bool) (l : list name) : nat :=
  match l with [] => 0 | x :: t => if p x then 0 else S (idx_of p t) end.

Lemma idx_of_spec p l d : (exists x, In x l /\ p x = true) -> idx_of p l < length l /\ p (nth (idx_of p l) l d) = true.
Proof.
  induction l as [|a t IH]; intros (x & Hx & Px); [destruct Hx|]. simpl. destruct (p a) eqn:Ea.
  - split; [lia | exact Ea].
  - destruct Hx as [->|Hx]; [congruence|]. destruct (IH (ex_intro _ x (conj Hx Px))) as [H1 H2]. split; [lia | exact H2].
Qed.

Lemma face_iff_subset r s t k j i : vinv r -> assoc s (r_simp r) = Some (S k, j) -> assoc t (r_simp r) = Some (k, i) ->
  (In t (faces r s) <-> incl (basisOf r t) (basisOf r s)).
Proof.
  intros Hv As At. split.
  - intros H. exact (face_basis_sub r Hv s k j t As H).
  - exact (subset_is_face r Hv s k j t i As At).
Qed.

Lemma partner_inj r k s s' (B : list name) : vinv r -> In s (simplicesOfOrder r k) -> In s' (simplicesOfOrder r k) ->
  sameset B (basisOf r s) -> sameset B (basisOf r s') -> s = s'.
Proof.
  intros V Hs Hs' S S'. pose proof (VInv.vinv_pinv r V) as P.
  destruct (proj1 (listed_assoc r s k P) Hs) as (j & A). destruct (proj1 (listed_assoc r s' k P) Hs') as (j' & A').
  apply (v_uniq r V); [exact (assoc_contains r s k j A) | exact (assoc_contains r s' k j' A') |].
  intros x. rewrite <- (S x), <- (S' x). tauto.
Qed.

Section Same.
  Variables r1 r2 : rep.
  Hypothesis V1 : vinv r1.
  Hypothesis V2 : vinv r2.
  Definition same_family : Prop := forall B, NoDup B -> B <> [] -> (carried r1 B <-> carried r2 B).
  Hypothesis Hfam : same_family.
  Let P1 : pinv r1 := VInv.vinv_pinv r1 V1.
  Let P2 : pinv r2 := VInv.vinv_pinv r2 V2.

  Definition sig (k i : nat) : nat :=
    idx_of (fun t => seteq (basisOf r2 t) (basisOf r1 (nth i (simplicesOfOrder r1 k) (NInt 0)))) (simplicesOfOrder r2 k).

  Lemma partner k s : In s (simplicesOfOrder r1 k) ->
    exists t, In t (simplicesOfOrder r2 k) /\ sameset (basisOf r2 t) (basisOf r1 s).
  Proof.
    intros Hs. destruct (proj1 (listed_assoc r1 s k P1) Hs) as (j & A).
    assert (Bne : basisOf r1 s <> []) by (pose proof (v_card r1 V1 s k j A) as L; destruct (basisOf r1 s); [discriminate|congruence]).
    destruct (proj1 (Hfam (basisOf r1 s) (basis_nodup r1 s P1) Bne)) as (t & Ct & St).
    - exists s. split; [exact (assoc_contains r1 s k j A) | intros x; tauto].
    - exists t. split; [|exact St]. apply containsSimplex_assoc in Ct. destruct Ct as (k' & j' & A').
      assert (k' = k); [|subst; apply (proj2 (listed_assoc r2 t k P2)); eauto].
      pose proof (v_card r2 V2 t k' j' A') as L'. pose proof (v_card r1 V1 s k j A) as L.
      rewrite (NoDup_same_length (basisOf r2 t) (basisOf r1 s)) in L'; [lia|apply basis_nodup; exact P2|apply basis_nodup; exact P1|exact St].
  Qed.

  Lemma sig_spec k i : i < length (simplicesOfOrder r1 k) ->
    sig k i < length (simplicesOfOrder r2 k) /\
    sameset (basisOf r2 (nth (sig k i) (simplicesOfOrder r2 k) (NInt 0))) (basisOf r1 (nth i (simplicesOfOrder r1 k) (NInt 0))).
  Proof.
    intros Hi. destruct (partner k _ (nth_In _ (NInt 0) Hi)) as (t & Ht & St).
    destruct (idx_of_spec (fun t0 => seteq (basisOf r2 t0) (basisOf r1 (nth i (simplicesOfOrder r1 k) (NInt 0)))) (simplicesOfOrder r2 k) (NInt 0)) as [H1 H2].
    - exists t. split; [exact Ht | now apply seteq_sameset].
    - split; [exact H1 | now apply seteq_sameset].
  Qed.

  Lemma sig_inj k i i' : i < length (simplicesOfOrder r1 k) -> i' < length (simplicesOfOrder r1 k) -> sig k i = sig k i' -> i = i'.
  Proof.
    intros Hi Hi' E. destruct (sig_spec k i Hi) as [_ S]. destruct (sig_spec k i' Hi') as [_ S']. rewrite E in S.
    apply (proj1 (NoDup_nth (simplicesOfOrder r1 k) (NInt 0)) (simplicesOfOrder_nodup r1 k P1)); auto.
    exact (partner_inj r1 k _ _ _ V1 (nth_In _ _ Hi) (nth_In _ _ Hi') S S').
  Qed.
End Same.

Lemma same_family_sym r1 r2 : same_family r1 r2 -> same_family r2 r1.
Proof. intros H B HB Hne. symmetry. now apply H. Qed.

Theorem same_counts r1 r2 k : vinv r1 -> vinv r2 -> same_family r1 r2 ->
  length (simplicesOfOrder r1 k) = length (simplicesOfOrder r2 k).
Proof.
  intros V1 V2 Hf.
  assert (G : forall a b, vinv a -> vinv b -> same_family a b -> length (simplicesOfOrder a k) <= length (simplicesOfOrder b k)).
  { intros a b Va Vb Hab. pose proof (VInv.vinv_pinv a Va) as Pa.
    apply (pigeon (fun s t => sameset (basisOf b t) (basisOf a s))); [apply simplicesOfOrder_nodup; exact Pa| |].
    - intros s Hs. destruct (partner a b Va Vb Hab k s Hs) as (t & Ht & St). eauto.
    - intros s s' t Hs Hs' S S'. exact (partner_inj a k s s' _ Va Hs Hs' S S'). }
  apply Nat.le_antisymm; [apply G; auto | apply G; auto; now apply same_family_sym].
Qed.

Lemma mentry_iff_subset r k i j : vinv r -> i < length (simplicesOfOrder r k) -> j < length (simplicesOfOrder r (S k)) ->
  (mentry (boundaryOperator r (S k)) i j = true <->
   incl (basisOf r (nth i (simplicesOfOrder r k) (NInt 0))) (basisOf r (nth j (simplicesOfOrder r (S k)) (NInt 0)))).
Proof.
  intros V Hi Hj.
  pose proof (VInv.vinv_pinv r V) as P.
  destruct (proj1 (listed_assoc r _ k P) (nth_In _ (NInt 0) Hi)) as (a & At).
  destruct (proj1 (listed_assoc r _ (S k) P) (nth_In _ (NInt 0) Hj)) as (b & As).
  rewrite <- (face_iff_subset r _ _ k b a V As At).
  apply (boundary_entries r k i j _ _ (VInv.vinv_sinv r V)); now apply nth_error_nth'.
Qed.

Theorem same_entries r1 r2 k i j : vinv r1 -> vinv r2 -> same_family r1 r2 ->
  i < length (simplicesOfOrder r1 k) -> j < length (simplicesOfOrder r1 (S k)) ->
  mentry (boundaryOperator r1 (S k)) i j = mentry (boundaryOperator r2 (S k)) (sig r1 r2 k i) (sig r1 r2 (S k) j).
Proof.
  intros V1 V2 Hf Hi Hj.
  destruct (sig_spec r1 r2 V1 V2 Hf k i Hi) as [Hi2 Si]. destruct (sig_spec r1 r2 V1 V2 Hf (S k) j Hj) as [Hj2 Sj].
  apply eq_true_iff_eq. rewrite (mentry_iff_subset r1 k i j V1 Hi Hj), (mentry_iff_subset r2 k _ _ V2 Hi2 Hj2).
  split; intros H x Hx; apply Sj, H, Si, Hx.
Qed.
