(* SortedViews.v -- closureOf / partOf: the `exclude_self` variants are the full answers without s, and the
   answers are sorted by order, ascending or (reverse=True) descending (C04).  Plain Coq. *)
From Coq Require Import String ZArith Bool Arith List Lia.
From SV Require Import Names NamesFacts ListFacts Rep Fresh Complex Atomic RepInv Shapes Incidence AddEffect
                       DelEffect StarOrder Closed ClosedReach Duality ClosureCount.
Import ListNotations.
Open Scope nat_scope.

(* orders along a list: never increasing / never decreasing *)
Fixpoint ndesc (l : list nat) : Prop := match l with [] => True | a :: t => (forall b, In b t -> b <= a) /\ ndesc t end.
Fixpoint nasc (l : list nat) : Prop := match l with [] => True | a :: t => (forall b, In b t -> a <= b) /\ nasc t end.

(* both are the one notion, for an order R, of a list in which every element stands R-before all later ones; what is
   proved about it uses the two unfolding equations only *)
Section Sorted.
  Variables (R : nat -> nat -> Prop) (srt : list nat -> Prop).
  Hypothesis R_refl : forall n, R n n.
  Hypothesis srt_nil : srt [].
  Hypothesis srt_cons : forall a t, srt (a :: t) <-> (forall b, In b t -> R a b) /\ srt t.

  Lemma sorted_app l1 l2 : srt l1 -> srt l2 -> (forall a b, In a l1 -> In b l2 -> R a b) -> srt (l1 ++ l2).
  Proof.
    induction l1 as [|x t IH]; simpl; intros H1 H2 H; [exact H2|]. apply srt_cons in H1. destruct H1 as [Hx Ht]. apply srt_cons. split.
    - intros b Hb. apply in_app_or in Hb. destruct Hb; [now apply Hx | apply (H x b); auto].
    - apply IH; auto.
  Qed.
  Lemma sorted_const (l : list nat) n : (forall x, In x l -> x = n) -> srt l.
  Proof.
    induction l as [|a t IH]; intros H; [exact srt_nil|]. apply srt_cons. split; [|apply IH; intros x Hx; apply H; now right].
    intros b Hb. rewrite (H a), (H b); simpl; auto.
  Qed.

  Lemma tagged_sorted {A} (f : A -> nat) : forall (lv : list (list A)) (tags : list nat),
    Forall2 (fun l n => NoDup l /\ forall x, In x l -> f x = n) lv tags -> srt tags ->
    srt (map f (concat lv)) /\ forall x, In x (map f (concat lv)) -> In x tags.
  Proof.
    induction 1 as [|l n lv tags [_ Hl] H IH]; intros Hd; simpl; [split; [exact srt_nil | intros x []]|].
    apply srt_cons in Hd. destruct Hd as [Hn Hd]. destruct (IH Hd) as [IH1 IH2]. rewrite map_app.
    assert (Hln : forall x, In x (map f l) -> x = n).
    { intros x Hx. apply in_map_iff in Hx. destruct Hx as (y & <- & Hy). now apply Hl. }
    split.
    - apply sorted_app; [exact (sorted_const _ n Hln) | exact IH1|].
      intros a b Ha Hb. rewrite (Hln a Ha). apply Hn. now apply IH2.
    - intros x Hx. apply in_app_or in Hx. destruct Hx as [Hx|Hx]; [left; symmetry; now apply Hln | right; now apply IH2].
  Qed.
End Sorted.

Lemma ndesc_down k : ndesc (down k).
Proof. induction k as [|k IH]; simpl; [split; [intros b []|exact I]|]. split; [|exact IH]. intros b Hb. apply In_down in Hb. lia. Qed.
Lemma nasc_rev l : ndesc l -> nasc (rev l).
Proof.
  induction l as [|a t IH]; simpl; intros H; [exact I|]. destruct H as [Ha Ht].
  apply (sorted_app le nasc (fun a t => iff_refl _)); [now apply IH | simpl; split; [intros b []|exact I]|].
  intros x b Hx [<-|[]]. apply Ha. now apply in_rev.
Qed.
Lemma ndesc_tl l : ndesc l -> ndesc (tl l).
Proof. destruct l; simpl; tauto. Qed.
Lemma Forall2_tl {A B} (R : A -> B -> Prop) l m : Forall2 R l m -> Forall2 R (tl l) (tl m).
Proof. intros H. destruct H; simpl; auto. Qed.

(* C04: closureOf is sorted by order -- ascending, descending on request -- whether or not s is kept *)
Theorem closureOf_sorted r s rev excl L : sinv r -> closureOf r s rev excl = Ok L ->
  if rev then ndesc (map (ord r) L) else nasc (map (ord r) L).
Proof.
  intros HS H. unfold closureOf, orderOf in H. destruct (assoc s (r_simp r)) as [[k j]|] eqn:As; [|discriminate].
  injection H as <-.
  assert (T : Forall2 (fun l n => NoDup l /\ forall x, In x l -> ord r x = n) (closure_levels r k [s]) (down k)).
  { apply closure_levels_tagged; [exact HS | constructor; [intros []|constructor] | intros x [<-|[]]; eauto]. }
  set (lv := if excl then tl (closure_levels r k [s]) else closure_levels r k [s]).
  set (tg := if excl then tl (down k) else down k).
  assert (T' : Forall2 (fun l n => NoDup l /\ forall x, In x l -> ord r x = n) lv tg).
  { unfold lv, tg. destruct excl; [now apply Forall2_tl | exact T]. }
  assert (D : ndesc tg) by (unfold tg; destruct excl; [apply ndesc_tl|]; apply ndesc_down).
  destruct rev.
  - exact (proj1 (tagged_sorted (fun a b => b <= a) ndesc Nat.le_refl I (fun _ _ => iff_refl _) (ord r) lv tg T' D)).
  - apply (tagged_sorted le nasc Nat.le_refl I (fun _ _ => iff_refl _) (ord r) (List.rev lv) (List.rev tg));
      [now apply Forall2_rev | now apply nasc_rev].
Qed.

Lemma closure_levels_head r k cur : exists rest, closure_levels r k cur = cur :: rest.
Proof. destruct k; simpl; eauto. Qed.

(* C04: exclude_self drops exactly s, at the end it stands at *)
Theorem closureOf_exclude_self r s : forall L1 L2, closureOf r s false false = Ok L1 -> closureOf r s true false = Ok L2 ->
  exists M1 M2, closureOf r s false true = Ok M1 /\ closureOf r s true true = Ok M2 /\ L1 = M1 ++ [s] /\ L2 = s :: M2.
Proof.
  intros L1 L2 H1 H2. unfold closureOf in *. destruct (orderOf r s) as [k|e]; [|discriminate].
  destruct (closure_levels_head r k [s]) as (rest & E). rewrite E in *. cbn [tl] in *.
  injection H1 as <-. injection H2 as <-. eexists. eexists. split; [reflexivity|]. split; [reflexivity|].
  split; [|reflexivity]. cbn [rev]. rewrite concat_app. cbn [concat]. now rewrite app_nil_r.
Qed.

Fixpoint asc (l : list (nat * name)) : Prop :=
  match l with [] => True | p :: t => (forall q, In q t -> fst p <= fst q) /\ asc t end.
Lemma asc_insert p l : asc l -> asc (insert_by Nat.leb p l).
Proof.
  induction l as [|a l IH]; intros H; simpl; [split; [intros q []|exact I]|].
  destruct H as [Ha Hl]. destruct (fst p <=? fst a) eqn:E.
  - apply Nat.leb_le in E. simpl. split; [|split; assumption].
    intros q [<-|Hq]; [exact E|]. specialize (Ha q Hq). lia.
  - apply Nat.leb_gt in E. simpl. split; [|now apply IH].
    intros q Hq. apply In_insert_by in Hq. destruct Hq as [->|Hq]; [lia | now apply Ha].
Qed.
Lemma asc_sort l : asc (sort_asc l).
Proof. unfold sort_asc. induction l as [|a l IH]; simpl; [exact I|]. now apply asc_insert. Qed.

(* C04: partOf: the variants differ by s alone, and the answer is sorted by the orders the walk recorded:
   everything but s stands strictly above s's order *)
Theorem partOf_variants r s k j : sinv r -> assoc s (r_simp r) = Some (k, j) ->
  exists A D : list (nat * name),
    partOf r s false true = Ok (map snd A) /\ partOf r s false false = Ok (s :: map snd A) /\
    partOf r s true true = Ok (map snd D) /\ partOf r s true false = Ok (map snd D ++ [s]) /\
    asc A /\ desc D /\ (forall q, In q A <-> In q D) /\
    (forall o c, In (o, c) A -> k < o /\ exists jc, assoc c (r_simp r) = Some (o, jc)).
Proof.
  intros HS As. unfold partOf, orderOf. rewrite As.
  set (P := dedup_on (partOf_aux (S (r_nord r)) r s k)).
  exists (sort_asc P), (sort_desc P).
  split; [reflexivity|]. split; [reflexivity|]. split; [reflexivity|]. split; [reflexivity|].
  split; [apply asc_sort|]. split; [apply desc_sort|]. split.
  - intros q. rewrite In_sort_asc, In_sort_desc. tauto.
  - intros o c H. apply (proj1 (In_sort_asc _ _)) in H. unfold P in H. apply In_dedup_sub in H.
    destruct (aux_orders r HS _ s k j o c As H) as [He Hlt]. split; assumption.
Qed.
