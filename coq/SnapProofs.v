(* SnapProofs.v -- the snapshot of a filtration at its current index answers membership, order
   and faces as the filtration does there (C14), and is a faithful detached complex (C09, C13).
   Plain Coq. *)
From Coq Require Import String ZArith Bool Arith List Lia.
From SV Require Import Names NamesFacts Rep Complex RepInv Shapes CopyFaithful Filtration Closed Smaller.
Import ListNotations.
Open Scope nat_scope.

(* the view of r through a list of its simplices: view_of r lists them all, f_view f those visible at the index *)
Definition names_view (r : rep) (L : list name) : srcview :=
  map (fun s => (s, (faces r s, match assoc s (r_attr r) with Some h => h | None => (0, 0) end))) L.

Theorem names_view_faithful hp r L uid hp' c : copy_new hp (names_view r L) uid = (hp', c, Ok tt) ->
  sinv c /\ (forall s, containsSimplex c s = memn s L) /\
  (forall s, In s L -> orderOf c s = Ok (length (faces r s) - 1) /\ forall t, In t (faces c s) <-> In t (faces r s)).
Proof.
  unfold copy_new, addSimplicesFrom.
  destruct (addFrom_loop hp (empty_rep uid) RNone rl0 (names_view r L) []) as [[[hp1 r1] st1] [ns|e]] eqn:E; [|discriminate].
  intros [= <- <-].
  destruct (bulk_add_faithful _ _ _ _ _ _ _ _ _ (sinv_empty uid) E) as (Hinv & Hsrc & _ & Hcont).
  split; [exact Hinv|]. split.
  - intros s. rewrite Hcont. unfold names_view. rewrite map_map. simpl. now rewrite map_id.
  - intros s Hs. apply (in_map (fun s => (s, (faces r s, match assoc s (r_attr r) with Some h => h | None => (0, 0) end)))) in Hs.
    destruct (Hsrc _ _ _ Hs) as (_ & Ho & Hf). split; assumption.
Qed.

Theorem snap_answers_as_filtration hp f uid hp' c :
  pinv (f_rep f) -> copy_new hp (f_view f) uid = (hp', c, Ok tt) ->
  sinv c /\
  (forall s, containsSimplex c s = f_contains f s) /\
  (forall s, f_contains f s = true ->
     orderOf c s = Ok (length (faces (f_rep f) s) - 1) /\ forall t, In t (faces c s) <-> In t (faces (f_rep f) s)).
Proof.
  intros P H. destruct (names_view_faithful hp (f_rep f) (f_simplices f false) uid hp' c H) as (Hinv & Hcont & Hsrc).
  assert (Hmem : forall s, In s (f_simplices f false) <-> f_contains f s = true).
  { intros s. unfold f_simplices. rewrite filter_In. split; [tauto|]. intros Hc. split; [|exact Hc].
    apply In_simplices_iff; [exact P|]. unfold f_contains in Hc. apply andb_prop in Hc. tauto. }
  split; [exact Hinv|]. split.
  - intros s. rewrite Hcont. apply eq_true_iff_eq. now rewrite memn_In.
  - intros s Hc. now apply Hsrc, Hmem.
Qed.

Theorem snap_orders_agree hp f uid hp' c :
  cinv (f_rep f) -> copy_new hp (f_view f) uid = (hp', c, Ok tt) ->
  forall s, f_contains f s = true -> orderOf c s = orderOf (f_rep f) s.
Proof.
  intros Hc H s Hs. destruct (snap_answers_as_filtration hp f uid hp' c (s_p _ (c_s _ Hc)) H) as (_ & _ & Hq).
  destruct (Hq s Hs) as [Ho _]. rewrite Ho.
  unfold f_contains in Hs. apply andb_prop in Hs. destruct Hs as [Hs _].
  apply (contains_iff_listed (f_rep f) s (s_p _ (c_s _ Hc))) in Hs. destruct Hs as (k & Hk).
  rewrite (proj1 (listed_iff_order _ s k (s_p _ (c_s _ Hc))) Hk). f_equal. now apply (cinv_face_counts _ Hc).
Qed.
